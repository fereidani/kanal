(* AtomicReduce.v - C03: Reduce.v instantiated with the atomic channel.
   Protected data = the channel configuration; a micro-operation = one label of Atomic.astep (one
   critical section of the code); the local data of a thread = the outputs of its calls so far.
   Any interleaving, lock event by lock event, of threads that each run a sequence of
   lock ; one critical section ; unlock, with any number of failed attempts and pauses in
   between, ends in the configuration - and gives every thread exactly the outputs - of
   Atomic.arun on the critical sections in the order of their unlocks.  Hence every theorem
   about arun (invariant, conservation, order, capacity, closure) holds for concurrent
   executions at the granularity of critical sections.  (The theorem asks that no thread takes a
   private step - the instance has none to take - and that the lock is free at the end.) *)
From KV Require Import Atomic Mutex Reduce.
From KV.proofs Require Import ReduceProof Inv StepInv.

Definition aexec (l : label) (a : aconf) (outs : list out) : aconf * list out :=
  let '(a', o) := astep a l in (a', outs ++ [o]).

(* the labels of a section, and the critical sections of a serialised execution as (thread, label), in order *)
Definition ops_of (is : list (item (list out) label)) : list label :=
  flat_map (fun i => match i with IOp _ _ l => [l] | ILoc _ _ _ => [] end) is.
Definition tagged (secs : list (N * list (item (list out) label))) : list (N * label) :=
  flat_map (fun s => map (fun l => (fst s, l)) (ops_of (snd s))) secs.

(* outputs of thread t in a run of tagged labels: those of its own labels, in order *)
Fixpoint outs_of (t : N) (a : aconf) (tl : list (N * label)) : list out :=
  match tl with
  | [] => []
  | (u, l) :: r => let '(a1, o) := astep a l in if N.eqb u t then o :: outs_of t a1 r else outs_of t a1 r
  end.

Definition no_local (secs : list (N * list (item (list out) label))) : Prop :=
  forall s i, In s secs -> In i (snd s) -> exists l, i = IOp _ _ l.

Lemma run_items_ops a outs is :
  (forall i, In i is -> exists l, i = IOp _ _ l) ->
  run_items aconf (list out) label aexec (a, outs) is =
  (fst (arun a (ops_of is)), outs ++ snd (arun a (ops_of is))).
Proof.
  revert a outs. induction is as [|i is IH]; intros a outs H.
  - simpl. rewrite app_nil_r. reflexivity.
  - destruct (H i (or_introl eq_refl)) as [l ->].
    change (run_items _ _ _ aexec (aexec l a outs) is = (fst (arun a (l :: ops_of is)), outs ++ snd (arun a (l :: ops_of is)))).
    unfold aexec at 2. simpl. destruct (astep a l) as [a1 o].
    rewrite IH by (intros j Hj; apply H; right; exact Hj).
    destruct (arun a1 (ops_of is)). simpl. rewrite <- app_assoc. reflexivity.
Qed.

Lemma cstep_ops c u is :
  (forall i, In i is -> exists l, i = IOp _ _ l) ->
  cstep aconf (list out) label aexec c (u, is) =
  mkC _ _ (fst (arun (c_sh _ _ c) (ops_of is)))
          (updl _ (c_loc _ _ c) u (c_loc _ _ c u ++ snd (arun (c_sh _ _ c) (ops_of is)))).
Proof. intros H. unfold cstep. rewrite (run_items_ops _ _ _ H). reflexivity. Qed.

Lemma arun_app a l1 l2 :
  arun a (l1 ++ l2) = (fst (arun (fst (arun a l1)) l2), snd (arun a l1) ++ snd (arun (fst (arun a l1)) l2)).
Proof.
  revert a. induction l1 as [|l r IH]; intros a; simpl.
  - destruct (arun a l2); reflexivity.
  - destruct (astep a l) as [a1 o]. rewrite IH. destruct (arun a1 r). reflexivity.
Qed.

Lemma outs_of_app t a l1 l2 :
  outs_of t a (l1 ++ l2) = outs_of t a l1 ++ outs_of t (fst (arun a (map snd l1))) l2.
Proof.
  revert a. induction l1 as [|[u l] r IH]; intros a; simpl; [reflexivity|].
  destruct (astep a l) as [a1 o]. rewrite IH. destruct (arun a1 (map snd r)), (N.eqb u t); reflexivity.
Qed.

Lemma outs_of_same t a ls : outs_of t a (map (fun l => (t, l)) ls) = snd (arun a ls).
Proof.
  revert a. induction ls as [|l r IH]; intros a; simpl; [reflexivity|].
  destruct (astep a l) as [a1 o]. rewrite N.eqb_refl, IH. destruct (arun a1 r). reflexivity.
Qed.

Lemma outs_of_other t u a ls : u <> t -> outs_of t a (map (fun l => (u, l)) ls) = [].
Proof.
  intros Hne. revert a. induction ls as [|l r IH]; intros a; simpl; [reflexivity|].
  destruct (astep a l) as [a1 o]. destruct (N.eqb_spec u t); [congruence|apply IH].
Qed.

Lemma map_snd_tag (t : N) (ls : list label) : map snd (map (fun l => (t, l)) ls) = ls.
Proof. rewrite map_map. apply map_id. Qed.

Lemma crun_is_arun secs : forall c,
  no_local secs ->
  c_sh _ _ (crun aconf (list out) label aexec c secs) = fst (arun (c_sh _ _ c) (map snd (tagged secs))) /\
  forall t, c_loc _ _ (crun aconf (list out) label aexec c secs) t = c_loc _ _ c t ++ outs_of t (c_sh _ _ c) (tagged secs).
Proof.
  induction secs as [|[u is] secs IH]; intros c Hnl.
  - simpl. split; [reflexivity|]. intros t. rewrite app_nil_r. reflexivity.
  - assert (Hops : forall i, In i is -> exists l, i = IOp _ _ l) by (intros i; apply (Hnl (u, is)); left; reflexivity).
    assert (Hnl' : no_local secs) by (intros s i Hs; apply Hnl; right; exact Hs).
    change (tagged ((u, is) :: secs)) with (map (fun l => (u, l)) (ops_of is) ++ tagged secs).
    change (crun _ _ _ aexec c ((u, is) :: secs)) with (crun _ _ _ aexec (cstep _ _ _ aexec c (u, is)) secs).
    destruct (IH (cstep _ _ _ aexec c (u, is)) Hnl') as [-> IHl].
    rewrite map_app, map_snd_tag, arun_app. split; [rewrite (cstep_ops c u is Hops); reflexivity|].
    intros t. rewrite IHl, outs_of_app, map_snd_tag, (cstep_ops c u is Hops), app_assoc. simpl. unfold updl.
    destruct (N.eqb_spec t u) as [->|Hne]; [rewrite outs_of_same|rewrite outs_of_other, app_nil_r by congruence];
      reflexivity.
Qed.

Lemma ser_no_local o_s o_u tr : forall m pend,
  (forall i, In i pend -> exists l, i = IOp (list out) label l) ->
  (forall t e, In (t, e) tr -> forall g, e <> FLocal _ _ g) ->
  no_local (ser (list out) label o_s o_u m pend tr).
Proof.
  induction tr as [|[u e] tr IH]; intros m pend Hp Hnl; [intros s i []|].
  assert (Hnl' : forall t e0, In (t, e0) tr -> forall g, e0 <> FLocal _ _ g)
    by (intros t e0 Hin; apply (Hnl t e0); right; exact Hin).
  destruct e as [me|o|g]; simpl.
  - destruct (mstep o_s o_u m u me) as [m'|]; [|intros s i []].
    destruct (holds m u && negb (holds m' u))%bool; [|apply IH; assumption].
    intros s i [<-|Hs]; [apply Hp|]. revert s i Hs. apply IH; [intros i []|exact Hnl'].
  - apply IH; [|exact Hnl'].
    intros i Hi. apply in_app_or in Hi as [Hi|[<-|[]]]; [apply Hp; exact Hi|eauto].
  - destruct (Hnl u _ (or_introl eq_refl) g). reflexivity.
Qed.

(* the statement of C03 at the granularity of critical sections *)
Theorem lock_level_executions_are_atomic_runs o_s o_u a0 tr s' :
  (forall t e, In (t, e) tr -> forall g, e <> FLocal _ _ g) ->
  frun aconf (list out) label aexec o_s o_u (finit _ _ a0 (fun _ => [])) tr = Some s' ->
  lock_free (f_m _ _ s') ->
  let order := tagged (ser (list out) label o_s o_u minit [] tr) in
  f_sh _ _ s' = fst (arun a0 (map snd order)) /\
  forall t, f_loc _ _ s' t = outs_of t a0 order.
Proof.
  intros Hnoloc E Hfree order.
  pose proof (critical_sections_are_atomic aconf (list out) label aexec o_s o_u a0 (fun _ => []) tr s' E Hfree) as [Hsh Hloc].
  assert (Hnl : no_local (ser (list out) label o_s o_u minit [] tr)).
  { apply ser_no_local; [intros i []|exact Hnoloc]. }
  destruct (crun_is_arun _ (cinit _ _ a0 (fun _ => [])) Hnl) as [Cs Cl].
  cbn [cinit c_sh c_loc] in Cs, Cl.
  split.
  - rewrite <- Hsh. exact Cs.
  - intros t. rewrite <- Hloc, Cl. reflexivity.
Qed.

(* so the invariant of the atomic channel holds after every concurrent execution of critical sections *)
Corollary concurrent_executions_keep_the_invariant o_s o_u b cap tr s' :
  (forall t e, In (t, e) tr -> forall g, e <> FLocal _ _ g) ->
  frun aconf (list out) label aexec o_s o_u (finit _ _ (init b cap) (fun _ => [])) tr = Some s' ->
  lock_free (f_m _ _ s') ->
  Inv (f_sh _ _ s').
Proof.
  intros Hnl E Hf.
  destruct (lock_level_executions_are_atomic_runs o_s o_u (init b cap) tr s' Hnl E Hf) as [Hsh _].
  rewrite Hsh. apply reachable_inv.
Qed.
