(* ReduceProof.v - C03, the reduction: a fine-grained execution and its serialisation agree.
   One simulation ([fstep_sim], [frun_sim]) carries both results: with [h] the holder of the lock
   ([MInv]) and [pend] what the holder has done since it entered, the coarse state reached by the
   sections emitted so far, followed by [pend] run for [h], is the fine state ([Rel]); and for every
   thread the emitted sections followed by its part of [pend] are its steps so far, in order.
   The only reordering is in the last case of [fstep_sim]: a private step of a thread outside the
   lock is emitted ahead of the holder's pending section, which touches neither its local data nor
   is touched by it. *)
From KV Require Import Mutex.
From KV.proofs Require Import MutexProof.
From KV Require Import Reduce.

#[local] Arguments Reduce.run_items : simpl never.

Section ReduceProof.
  Variables (S L O : Type).
  Variable exec : O -> S -> L -> S * L.
  Variables (o_s o_u : ordering).

  Notation fstate := (fstate S L).
  Notation cstate := (cstate S L).
  Notation item := (item L O).
  Notation fstep := (fstep S L O exec o_s o_u).
  Notation frun := (frun S L O exec o_s o_u).
  Notation cstep := (cstep S L O exec).
  Notation crun := (crun S L O exec).
  Notation run_items := (run_items S L O exec).
  Notation ser := (ser L O o_s o_u).
  Notation proj := (proj L O).
  Notation cproj := (cproj L O).
  Notation MI := (MInv (mutex_ords_ok o_s o_u)).

  Definition is_holder (h : option N) (t : N) : bool :=
    match h with Some u => N.eqb u t | None => false end.

  Lemma holds_spec m h t : MI m h -> holds m t = is_holder h t.
  Proof.
    intros HI. destruct (mi_hold _ _ _ HI t) as [H1 H2]. unfold holds.
    destruct h as [u|]; simpl; [destruct (N.eqb_spec u t) as [->|Hn]|].
    - rewrite H2; reflexivity.
    - destruct (m_pc m t); try reflexivity. specialize (H1 eq_refl). congruence.
    - destruct (m_pc m t); try reflexivity. discriminate (H1 eq_refl).
  Qed.

  Lemma lock_free_spec m h : MI m h -> lock_free m -> h = None.
  Proof.
    intros HI Hf. destruct h as [t|]; [|reflexivity].
    specialize (Hf t). rewrite (holds_spec _ _ _ HI) in Hf. simpl in Hf. rewrite N.eqb_refl in Hf. discriminate.
  Qed.

  Lemma updl_same (loc : N -> L) t v : updl L loc t v t = v.
  Proof. unfold updl. rewrite N.eqb_refl. reflexivity. Qed.
  Lemma updl_other (loc : N -> L) t v x : x <> t -> updl L loc t v x = loc x.
  Proof. unfold updl. intros H. destruct (N.eqb_spec x t); [congruence|reflexivity]. Qed.
  Lemma updl_ext (loc loc' : N -> L) t v x : loc x = loc' x -> updl L loc t v x = updl L loc' t v x.
  Proof. unfold updl. intros ->. reflexivity. Qed.

  Lemma run_items_app p a b : run_items p (a ++ b) = run_items (run_items p a) b.
  Proof. apply fold_left_app. Qed.

  Lemma crun_app c a b : crun c (a ++ b) = crun (crun c a) b.
  Proof. apply fold_left_app. Qed.

  Lemma cproj_app t a b : cproj t (a ++ b) = cproj t a ++ cproj t b.
  Proof.
    induction a as [|[u is] a IH]; simpl; [reflexivity|].
    destruct (N.eqb u t); [rewrite IH, app_assoc; reflexivity|exact IH].
  Qed.

  Lemma proj_cons t u e tr : proj t ((u, e) :: tr) = proj t [(u, e)] ++ proj t tr.
  Proof. destruct e; simpl; destruct (N.eqb u t); reflexivity. Qed.

  Lemma fstep_lock s t me s1 : fstep s t (FLock _ _ me) = Some s1 ->
    exists m', mstep o_s o_u (f_m _ _ s) t me = Some m' /\ s1 = mkF _ _ m' (f_sh _ _ s) (f_loc _ _ s).
  Proof.
    unfold Reduce.fstep.
    destruct me; try discriminate; (destruct (mstep _ _ _ _ _) as [m'|]; [|discriminate]); intros [= <-]; eauto.
  Qed.

  Definition Rel (h : option N) (s : fstate) (c : cstate) (pend : list item) : Prop :=
    match h with
    | Some t => run_items (c_sh _ _ c, c_loc _ _ c t) pend = (f_sh _ _ s, f_loc _ _ s t)
                /\ forall u, u <> t -> c_loc _ _ c u = f_loc _ _ s u
    | None => pend = [] /\ c_sh _ _ c = f_sh _ _ s /\ forall u, c_loc _ _ c u = f_loc _ _ s u
    end.

  Definition pending (h : option N) (pend : list item) (t : N) : list item :=
    if is_holder h t then pend else [].

  (* an item done by the holder joins the pending section *)
  Lemma Rel_inside t s c pend i m' :
    Rel (Some t) s c pend ->
    let r := run_items (f_sh _ _ s, f_loc _ _ s t) [i] in
    Rel (Some t) (mkF _ _ m' (fst r) (updl L (f_loc _ _ s) t (snd r))) c (pend ++ [i]).
  Proof.
    intros [Hrun Hoth]. split; simpl.
    - rewrite run_items_app, Hrun, updl_same. apply surjective_pairing.
    - intros u Hu. rewrite updl_other by exact Hu. apply Hoth, Hu.
  Qed.

  Lemma pending_inside t pend i x :
    pending (Some t) (pend ++ [i]) x = pending (Some t) pend x ++ (if N.eqb t x then [i] else []).
  Proof. unfold pending. simpl. destruct (N.eqb t x); reflexivity. Qed.

  Lemma fstep_sim s h c pend t e s1 :
    MI (f_m _ _ s) h -> Rel h s c pend -> fstep s t e = Some s1 ->
    exists h' secs pend',
      MI (f_m _ _ s1) h' /\ Rel h' s1 (crun c secs) pend' /\
      (forall r, ser (f_m _ _ s) pend ((t, e) :: r) = secs ++ ser (f_m _ _ s1) pend' r) /\
      (forall x, cproj x secs ++ pending h' pend' x = pending h pend x ++ proj x [(t, e)]).
  Proof.
    intros HI HR E. destruct e as [me|o|g].
    - (* lock protocol: the data stay, the holder moves *)
      apply fstep_lock in E as (m' & Em & ->).
      destruct (mstep_inv _ _ _ _ _ _ _ HI Em) as (h' & Hmv & HI'). exists h'.
      assert (Hser : forall r, ser (f_m _ _ s) pend ((t, FLock _ _ me) :: r) =
                if is_holder h t && negb (is_holder h' t) then (t, pend) :: ser m' [] r else ser m' pend r).
      { intros r. simpl. rewrite Em, (holds_spec _ _ _ HI), (holds_spec _ _ _ HI'). reflexivity. }
      destruct Hmv as [| |h]; cbn [is_holder andb negb] in Hser.
      + (* acquisition: nothing is pending *)
        destruct HR as (-> & Hsh & Hloc). exists [], []. refine (conj HI' (conj _ (conj Hser _))).
        * split; [simpl; rewrite Hsh, Hloc; reflexivity|intros u _; apply Hloc].
        * intros x. unfold pending. simpl. destruct (N.eqb t x); reflexivity.
      + (* unlock: the section is emitted *)
        rewrite N.eqb_refl in Hser. destruct HR as [Hrun Hoth].
        exists [(t, pend)], []. refine (conj HI' (conj _ (conj Hser _))).
        * simpl. rewrite Hrun. repeat split. intros u.
          destruct (N.eq_dec u t) as [->|Hu]; [apply updl_same|]. rewrite updl_other by exact Hu. apply Hoth, Hu.
        * intros x. unfold pending. simpl. destruct (N.eqb t x); rewrite ?app_nil_r; reflexivity.
      + (* attempts, pauses *)
        rewrite andb_negb_r in Hser. exists [], pend. refine (conj HI' (conj HR (conj Hser _))).
        intros x. apply eq_sym, app_nil_r.
    - (* micro-operation: by the holder *)
      simpl in E. rewrite (holds_spec _ _ _ HI) in E. destruct h as [t'|]; [|discriminate]. simpl in E.
      destruct (N.eqb_spec t' t) as [->|]; [|discriminate]. injection E as <-.
      exists (Some t), [], (pend ++ [IOp _ _ o]). refine (conj HI (conj _ (conj (fun r => eq_refl) _))).
      + apply (Rel_inside t s c pend (IOp _ _ o)), HR.
      + apply pending_inside.
    - (* private computation *)
      injection E as <-.
      assert (Hser : forall r, ser (f_m _ _ s) pend ((t, FLocal _ _ g) :: r) =
                if is_holder h t then ser (f_m _ _ s) (pend ++ [ILoc _ _ g]) r
                else (t, [ILoc _ _ g]) :: ser (f_m _ _ s) pend r).
      { intros r. simpl. rewrite (holds_spec _ _ _ HI). reflexivity. }
      exists h. destruct (is_holder h t) eqn:Ht.
      + (* by the holder *)
        destruct h as [t'|]; [|discriminate]. apply N.eqb_eq in Ht as ->.
        exists [], (pend ++ [ILoc _ _ g]). refine (conj HI (conj _ (conj Hser _))).
        * apply (Rel_inside t s c pend (ILoc _ _ g)), HR.
        * apply pending_inside.
      + (* by a thread outside: emitted at once, ahead of the pending section *)
        exists [(t, [ILoc _ _ g])], pend. refine (conj HI (conj _ (conj Hser _))).
        * destruct h as [t'|]; simpl in Ht |- *.
          -- apply N.eqb_neq in Ht. destruct HR as [Hrun Hoth].
             rewrite !updl_other by exact Ht. split; [exact Hrun|].
             intros u Hu. rewrite (Hoth t) by congruence. apply updl_ext, Hoth, Hu.
          -- destruct HR as (-> & Hsh & Hloc). split; [reflexivity|split; [exact Hsh|]].
             intros u. rewrite (Hloc t). apply updl_ext, Hloc.
        * intros x. unfold pending. simpl.
          destruct (N.eqb_spec t x) as [<-|]; [rewrite Ht|rewrite app_nil_r]; reflexivity.
  Qed.

  Lemma frun_sim tr : forall s h c pend s',
    MI (f_m _ _ s) h -> Rel h s c pend -> frun s tr = Some s' ->
    exists h' pend',
      MI (f_m _ _ s') h' /\ Rel h' s' (crun c (ser (f_m _ _ s) pend tr)) pend' /\
      forall x, cproj x (ser (f_m _ _ s) pend tr) ++ pending h' pend' x = pending h pend x ++ proj x tr.
  Proof.
    induction tr as [|[t e] tr IH]; intros s h c pend s' HI HR E; simpl in E.
    - injection E as <-. exists h, pend. refine (conj HI (conj HR _)). intros x. apply eq_sym, app_nil_r.
    - destruct (fstep s t e) as [s1|] eqn:E1; [|discriminate].
      destruct (fstep_sim _ _ _ _ _ _ _ HI HR E1) as (h1 & secs & pend1 & HI1 & HR1 & Hser & Hp1).
      destruct (IH _ _ _ _ _ HI1 HR1 E) as (h' & pend' & HI' & HR' & Hp').
      exists h', pend'. rewrite Hser, crun_app. refine (conj HI' (conj HR' _)).
      intros x. rewrite cproj_app, <- app_assoc, Hp', app_assoc, Hp1, <- app_assoc, <- proj_cons. reflexivity.
  Qed.

  Lemma finit_sim sh loc : MI (f_m _ _ (finit S L sh loc)) None /\ Rel None (finit S L sh loc) (cinit S L sh loc) [].
  Proof. split; [apply minit_inv|repeat split]. Qed.

  Theorem critical_sections_are_atomic sh loc tr s' :
    frun (finit S L sh loc) tr = Some s' -> lock_free (f_m _ _ s') ->
    let c' := crun (cinit S L sh loc) (ser minit [] tr) in
    c_sh _ _ c' = f_sh _ _ s' /\ forall u, c_loc _ _ c' u = f_loc _ _ s' u.
  Proof.
    intros E Hf. destruct (finit_sim sh loc) as [HI HR].
    destruct (frun_sim _ _ _ _ _ _ HI HR E) as (h' & pend' & HI' & HR' & _).
    rewrite (lock_free_spec _ _ HI' Hf) in HR'. apply HR'.
  Qed.

  Theorem serialisation_keeps_program_order sh loc tr s' :
    frun (finit S L sh loc) tr = Some s' -> lock_free (f_m _ _ s') ->
    forall t, cproj t (ser minit [] tr) = proj t tr.
  Proof.
    intros E Hf t. destruct (finit_sim sh loc) as [HI HR].
    destruct (frun_sim _ _ _ _ _ _ HI HR E) as (h' & pend' & HI' & _ & Hp).
    specialize (Hp t). rewrite (lock_free_spec _ _ HI' Hf), app_nil_r in Hp. exact Hp.
  Qed.
End ReduceProof.
