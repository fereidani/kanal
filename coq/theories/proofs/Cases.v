(* Cases.v - characterising lemmas: what the signal operations make of a waiter's object; under the
   invariant each critical section of Atomic.v is one of a few named cases (send_case, recv_case) and
   leaves the rest of the state alone (frame); each step through which a waiting object leaves does the
   same thing (leave_step); every result of a poll is one of thirteen cases (poll_case).  The proofs
   about steps go by these cases, and walk through the labels with the tactic by_label (at the end). *)
From KV Require Import Atomic.
From KV.proofs Require Import Assoc Inv.

(* what Signal::send, Signal::recv and Signal::terminate make of the waiter's object *)
Definition fin_deliver (o : obj) (x : tag) : obj := set_sig (set_val o (Some x)) SOk.
Definition fin_take (o : obj) : obj := set_sig (set_val o None) SOk.
Definition fin_term (o : obj) : obj := set_sig o STerm.

Lemma sig_deliver_bound k x os o :
  lookup k os = Some o -> sig_deliver k x os = (update k (fin_deliver o x) os, wake_of o).
Proof. unfold sig_deliver. intros ->. reflexivity. Qed.

Lemma sig_take_bound k os o :
  lookup k os = Some o -> sig_take k os = (o_val o, update k (fin_take o) os, wake_of o).
Proof. unfold sig_take. intros ->. reflexivity. Qed.

Lemma sig_term_bound k os o : lookup k os = Some o -> sig_term k os = (update k (fin_term o) os, wake_of o).
Proof. unfold sig_term. intros ->. reflexivity. Qed.

Lemma sig_term_unbound k os : lookup k os = None -> sig_term k os = (os, []).
Proof. unfold sig_term. intros ->. reflexivity. Qed.

Lemma term_all_lookup wl : forall os k,
  lookup k (fst (term_all wl os)) =
  if mem k wl then option_map fin_term (lookup k os) else lookup k os.
Proof.
  induction wl as [|k0 r IH]; intros os k; simpl; [reflexivity|].
  destruct (lookup k0 os) as [o0|] eqn:E0.
  - rewrite (sig_term_bound k0 os o0 E0). specialize (IH (update k0 (fin_term o0) os) k).
    destruct (term_all r _) as [os2 w2]. simpl in *. rewrite IH, lookup_update.
    (* if k0 occurs in r as well it is terminated twice: fin_term (fin_term o0) computes to fin_term o0 *)
    destruct (N.eqb_spec k k0) as [->|]; [rewrite E0; destruct (mem k0 r)|]; reflexivity.
  - rewrite (sig_term_unbound k0 os E0). specialize (IH os k).
    destruct (term_all r os) as [os2 w2]. simpl in *. rewrite IH.
    destruct (N.eqb_spec k k0) as [->|]; simpl; [rewrite E0; destruct (mem k0 r)|]; reflexivity.
Qed.

Lemma terminate_signals_fst a :
  fst (terminate_signals a) =
  mkConf (set_wait (ch a) []) (fst (term_all (wait_list (ch a)) (objs a))) (handles a).
Proof. unfold terminate_signals. destruct (term_all _ _). reflexivity. Qed.

Lemma okb_fin_take f o :
  o_fst o = FWaiting -> is_send o = true -> obj_okb false f (fin_take o) = true.
Proof. intros E S. unfold obj_okb, is_send in *. simpl. rewrite E, S. reflexivity. Qed.

Lemma okb_fin_term f o :
  o_fst o = FWaiting -> has_val o = is_send o -> obj_okb false f (fin_term o) = true.
Proof. intros E S. unfold obj_okb, has_val in *. simpl. rewrite E, S. apply eqb_reflx. Qed.

(* the flag after a next_recv / next_send that found nobody *)
Definition no_recv (c c1 : chan) : Prop :=
  (recv_blocking c = false /\ c1 = c) \/
  (recv_blocking c = true /\ wait_list c = [] /\ c1 = set_flag c false).
Definition no_send (c c1 : chan) : Prop :=
  (recv_blocking c = true /\ c1 = c) \/
  (recv_blocking c = false /\ wait_list c = [] /\ c1 = set_flag c true).

(* either way the flag now has the other value, lazily: nobody of the old side is listed *)
Lemma no_recv_eq c c1 : no_recv c c1 -> c1 = set_flag c false /\ (recv_blocking c = false \/ wait_list c = []).
Proof. intros [[F ->]|(_ & W & ->)]; [destruct c; simpl in F; subst|]; auto. Qed.
Lemma no_send_eq c c1 : no_send c c1 -> c1 = set_flag c true /\ (recv_blocking c = true \/ wait_list c = []).
Proof. intros [[F ->]|(_ & W & ->)]; [destruct c; simpl in F; subst|]; auto. Qed.

Lemma head_listed a k r :
  Inv a -> wait_list (ch a) = k :: r ->
  exists o, lookup k (objs a) = Some o /\ o_fst o = FWaiting /\ o_sig o = SLocked /\
            is_send o = negb (recv_blocking (ch a)) /\ has_val o = negb (recv_blocking (ch a)) /\ ~ In k r.
Proof. intros (HO & _) W. rewrite W in HO. exact (invO_head _ _ _ _ _ HO). Qed.

Lemma head_once a k r : Inv a -> wait_list (ch a) = k :: r -> ~ In k r.
Proof. intros HI W. destruct (head_listed a k r HI W) as [o H]. apply H. Qed.

Lemma next_recv_case c :
  (exists k r, recv_blocking c = true /\ wait_list c = k :: r /\ next_recv c = (Some k, set_wait c r)) \/
  (exists c1, no_recv c c1 /\ next_recv c = (None, c1)).
Proof.
  unfold next_recv, no_recv. destruct (recv_blocking c); simpl.
  - destruct (wait_list c) as [|k r].
    + right. eexists. split; [right; eauto|reflexivity].
    + left. exists k, r. auto.
  - right. exists c. auto.
Qed.

Lemma next_send_case c :
  (exists k r, recv_blocking c = false /\ wait_list c = k :: r /\ next_send c = (Some k, set_wait c r)) \/
  (exists c1, no_send c c1 /\ next_send c = (None, c1)).
Proof.
  unfold next_send, no_send. destruct (recv_blocking c).
  - right. exists c. auto.
  - destruct (wait_list c) as [|k r].
    + right. eexists. split; [right; eauto|reflexivity].
    + left. exists k, r. auto.
Qed.

Inductive send_case (a : aconf) (x : tag) : send_cs -> Prop :=
| sc_err :
    recv_count (ch a) = 0%N ->
    send_case a x (SCErr (if N.eqb (send_count (ch a)) 0 then EClosed else ERecvClosed))
| sc_deliver k r o :
    recv_count (ch a) <> 0%N -> recv_blocking (ch a) = true -> wait_list (ch a) = k :: r ->
    lookup k (objs a) = Some o -> is_send o = false -> o_val o = None ->
    send_case a x (SCSent (mkConf (set_wait (ch a) r) (update k (fin_deliver o x) (objs a)) (handles a)) (wake_of o))
| sc_buffer c1 :
    recv_count (ch a) <> 0%N -> no_recv (ch a) c1 -> (len (queue c1) < capacity c1)%N ->
    send_case a x (SCSent (mkConf (set_queue c1 (queue c1 ++ [x])) (objs a) (handles a)) [])
| sc_full c1 :
    recv_count (ch a) <> 0%N -> no_recv (ch a) c1 -> (capacity c1 <= len (queue c1))%N ->
    send_case a x (SCFull (mkConf c1 (objs a) (handles a))).

Lemma cs_send_case a x : Inv a -> send_case a x (cs_send a x).
Proof.
  intros HI. unfold cs_send.
  destruct (N.eqb_spec (recv_count (ch a)) 0) as [E0|N0]; [apply sc_err; exact E0|].
  destruct (next_recv_case (ch a)) as [(k & r & F & W & ->)|(c1 & Hn & ->)].
  - destruct (head_listed a k r HI W) as (o & Ho & _ & _ & Hs & Hv & _). rewrite F in Hs, Hv.
    rewrite (sig_deliver_bound k x _ o Ho). apply sc_deliver; auto using has_val_false.
  - destruct (N.ltb_spec (len (queue c1)) (capacity c1)); [apply sc_buffer|apply sc_full]; auto.
Qed.

Inductive recv_case (a : aconf) : recv_cs -> Prop :=
| rc_closed : recv_count (ch a) = 0%N -> recv_case a RCClosed
| rc_refill v q k r o y :
    recv_count (ch a) <> 0%N -> queue (ch a) = v :: q ->
    recv_blocking (ch a) = false -> wait_list (ch a) = k :: r ->
    lookup k (objs a) = Some o -> is_send o = true -> o_val o = Some y ->
    recv_case a (RCGot v (mkConf (set_queue (set_wait (set_queue (ch a) q) r) (q ++ [y]))
                                 (update k (fin_take o) (objs a)) (handles a)) (wake_of o))
| rc_pop v q c1 :
    recv_count (ch a) <> 0%N -> queue (ch a) = v :: q -> no_send (set_queue (ch a) q) c1 ->
    recv_case a (RCGot v (mkConf c1 (objs a) (handles a)) [])
| rc_direct k r o y :
    recv_count (ch a) <> 0%N -> queue (ch a) = [] ->
    recv_blocking (ch a) = false -> wait_list (ch a) = k :: r ->
    lookup k (objs a) = Some o -> is_send o = true -> o_val o = Some y ->
    recv_case a (RCGot y (mkConf (set_wait (ch a) r) (update k (fin_take o) (objs a)) (handles a)) (wake_of o))
| rc_none c1 :
    recv_count (ch a) <> 0%N -> queue (ch a) = [] -> no_send (ch a) c1 ->
    recv_case a (RCNone (mkConf c1 (objs a) (handles a))).

Lemma take_head k r os hs :
  InvO false (k :: r) os hs ->
  exists o y, lookup k os = Some o /\ is_send o = true /\ o_val o = Some y /\ ~ In k r /\
              sig_take k os = (Some y, update k (fin_take o) os, wake_of o) /\
              InvO false r (update k (fin_take o) os) hs.
Proof.
  intros HO. destruct (invO_head _ _ _ _ _ HO) as (o & Ho & F & _ & Hs & [y Hy]%has_val_true & Hn).
  exists o, y. rewrite (sig_take_bound k os o Ho), Hy.
  pose proof (invO_pop _ _ _ _ _ o (fin_take o) HO Ho eq_refl eq_refl (okb_fin_take false o F Hs)). auto 7.
Qed.

Lemma head_sender a k r :
  Inv a -> recv_blocking (ch a) = false -> wait_list (ch a) = k :: r ->
  exists o y, lookup k (objs a) = Some o /\ is_send o = true /\ o_val o = Some y /\
              sig_take k (objs a) = (Some y, update k (fin_take o) (objs a), wake_of o).
Proof.
  intros (HO & _) F W. rewrite F, W in HO.
  destruct (take_head _ _ _ _ HO) as (o & y & Ho & Hs & Hy & _ & Et & _). eauto 6.
Qed.

Lemma cs_recv_case a : Inv a -> recv_case a (cs_recv a).
Proof.
  intros HI. unfold cs_recv.
  destruct (N.eqb_spec (recv_count (ch a)) 0) as [E0|N0]; [apply rc_closed; exact E0|].
  destruct (queue (ch a)) as [|v q] eqn:Q.
  - destruct (next_send_case (ch a)) as [(k & r & F & W & ->)|(c1 & Hn & ->)]; [|apply rc_none; auto].
    destruct (head_sender a k r HI F W) as (o & y & Ho & Hs & Hy & ->). apply rc_direct; auto.
  - destruct (next_send_case (set_queue (ch a) q)) as [(k & r & F & W & ->)|(c1 & Hn & ->)];
      [|eapply rc_pop; eauto].
    destruct (head_sender a k r HI F W) as (o & y & Ho & Hs & Hy & ->). eapply rc_refill; eauto.
Qed.

(* what a critical section leaves alone: objects that are not listed keep their binding, nobody joins
   the list, counts, capacity and handles stay *)
Definition frame (a a1 : aconf) : Prop :=
  (forall f, ~ In f (wait_list (ch a)) -> lookup f (objs a1) = lookup f (objs a) /\ ~ In f (wait_list (ch a1))) /\
  recv_count (ch a1) = recv_count (ch a) /\ send_count (ch a1) = send_count (ch a) /\
  capacity (ch a1) = capacity (ch a) /\ handles a1 = handles a.

Lemma frame_lookup a a1 f o :
  frame a a1 -> ~ In f (wait_list (ch a)) -> lookup f (objs a) = Some o -> lookup f (objs a1) = Some o.
Proof. intros [Hf _] N Ho. destruct (Hf f N) as [-> _]. exact Ho. Qed.

Lemma frame_pop a k r o' q :
  wait_list (ch a) = k :: r ->
  frame a (mkConf (set_queue (set_wait (ch a) r) q) (update k o' (objs a)) (handles a)).
Proof.
  intros W. split; [|simpl; auto]. intros f. rewrite W. simpl. intros Hf. split.
  - apply lookup_update_neq. intros ->. tauto.
  - tauto.
Qed.

Lemma frame_flag a q b : frame a (mkConf (set_flag (set_queue (ch a) q) b) (objs a) (handles a)).
Proof. split; simpl; auto. Qed.

Lemma send_case_frame a x :
  Inv a -> match cs_send a x with SCSent a1 _ | SCFull a1 => frame a a1 | SCErr _ => True end.
Proof.
  intros [E0|k r0 o N0 F W Ho Hs Hv|c1 N0 [-> _]%no_recv_eq Hl|c1 N0 [-> _]%no_recv_eq Hl]%(cs_send_case a x); auto.
  - apply (frame_pop a k r0 _ (queue (ch a)) W).
  - apply (frame_flag a (queue (ch a) ++ [x]) false).
  - apply (frame_flag a (queue (ch a)) false).
Qed.

Lemma recv_case_frame a :
  Inv a -> match cs_recv a with RCGot _ a1 _ | RCNone a1 => frame a a1 | _ => True end.
Proof.
  intros [E0|v q k r0 o y N0 Q F W Ho Hs Hv|v q c1 N0 Q [-> _]%no_send_eq|k r0 o y N0 Q F W Ho Hs Hv
         |c1 N0 Q [-> _]%no_send_eq]%cs_recv_case; auto.
  - apply (frame_pop a k r0 _ (q ++ [y]) W).
  - apply (frame_flag a q true).
  - apply (frame_pop a k r0 _ (queue (ch a)) W).
  - apply (frame_flag a (queue (ch a)) true).
Qed.

(* neither the model's "cannot happen" outcome nor a panic *)
Definition plain (r : res) : Prop := r <> RHang /\ r <> RPanic.

(* step_complete, a step_timeout that fires and step_drop_fut all do the same to the state: the
   object goes, from the list too if it is there, and the value it still holds goes out with the result *)
Definition leaves (a : aconf) (k : id) (o : obj) (r : aconf * out) : Prop :=
  fst r = forget a k /\ r_wakes (snd r) = [] /\
  res_received (r_res (snd r)) ++ r_drops (snd r) ++ r_back (snd r) =
  match o_val o with Some x => [x] | None => [] end.

Lemma forget_unlisted a k : ~ In k (wait_list (ch a)) -> with_objs a (remove_key k (objs a)) = forget a k.
Proof. intros H. unfold forget. rewrite (remove_first_id _ _ H). destruct a as [[] ? ?]. reflexivity. Qed.

Lemma cancel_listed a k o :
  In k (wait_list (ch a)) -> recv_blocking (ch a) = negb (is_send o) ->
  (if is_send o then cancel_send_signal (ch a) k else cancel_recv_signal (ch a) k) = (true, ch (forget a k)).
Proof.
  intros L%mem_in B. unfold cancel_send_signal, cancel_recv_signal. rewrite B, L.
  destruct (is_send o); reflexivity.
Qed.

Lemma cancel_unlisted a k :
  ~ In k (wait_list (ch a)) ->
  cancel_send_signal (ch a) k = (false, ch a) /\ cancel_recv_signal (ch a) k = (false, ch a).
Proof.
  intros N%mem_false. unfold cancel_send_signal, cancel_recv_signal. rewrite N.
  destruct (recv_blocking (ch a)); auto.
Qed.

(* In each stage the branch taken computes to `forget`; the value goes out when the object has one. *)
Lemma step_drop_fut_eq a f o :
  Inv a -> lookup f (objs a) = Some o -> kind_async (o_kind o) = true ->
  step_drop_fut a f =
  (forget a f, mkOut RUnit (match o_val o with Some x => [x] | None => [] end) [] []).
Proof.
  intros HI Ho Ha. unfold step_drop_fut. rewrite Ho, Ha. cbn [negb].
  (* by stage, then by side; where the step emits nothing the object has no value (V) *)
  destruct (stage_of a f o HI Ho) as [F S _ N V|F S L B V|F S N V|F S N V|F _ N V]; rewrite F, ?S;
    unfold is_send in *.
  - rewrite (forget_unlisted a f N).
    destruct (kind_side (o_kind o)); try rewrite (has_val_false o V); reflexivity.
  - (* listed: the cancel takes it out of the list *)
    pose proof (cancel_listed a f o L B) as C. unfold is_send in C.
    destruct (kind_side (o_kind o)); rewrite C; try rewrite (has_val_false o V); reflexivity.
  - (* finished by a peer: the cancel does not find it *)
    destruct (cancel_unlisted a f N) as [-> ->]. rewrite (forget_unlisted a f N).
    destruct (kind_side (o_kind o)); try rewrite (has_val_false o V); reflexivity.
  - destruct (cancel_unlisted a f N) as [-> ->]. rewrite (forget_unlisted a f N).
    destruct (kind_side (o_kind o)); try rewrite (has_val_false o V); reflexivity.
  - rewrite (forget_unlisted a f N).
    destruct (kind_side (o_kind o)); try rewrite (has_val_false o V); reflexivity.
Qed.

Lemma step_timeout_leaves a k o :
  Inv a -> lookup k (objs a) = Some o -> kind_timed (o_kind o) = true -> o_sig o = SLocked ->
  leaves a k o (step_timeout a k) /\ r_res (snd (step_timeout a k)) = RErr ETimeout.
Proof.
  intros HI Ho Ht S. unfold step_timeout, leaves. rewrite Ho, Ht, S. cbn [negb].
  (* a timed waiter whose signal is still Locked is in the list: the other stages are those of a
     future (never polled, done) or have another signal (finished, terminated) *)
  destruct (stage_of a k o HI Ho) as [_ _ A _ _|_ _ L B V|_ S' _ _|_ S' _ _|_ A _ _]; try congruence;
    try (destruct (o_kind o); discriminate).
  (* so the cancel finds it (C) and the step is `forget`; a timed sender has its value, and its kind says where that
     goes, a timed receiver has none (V) *)
  pose proof (cancel_listed a k o L B) as C. unfold is_send, has_val in *.
  destruct (o_kind o); try discriminate Ht; cbn in *; rewrite C; destruct (o_val o); try discriminate V; auto.
Qed.

Lemma step_complete_leaves a k o :
  Inv a -> lookup k (objs a) = Some o -> kind_async (o_kind o) = false -> o_sig o <> SLocked ->
  leaves a k o (step_complete a k) /\ plain (r_res (snd (step_complete a k))).
Proof.
  intros HI Ho A S. unfold step_complete, leaves. rewrite Ho, A.
  (* a blocking waiter whose signal is no longer Locked has been finished or terminated by a peer, and
     is not listed *)
  destruct (stage_of a k o HI Ho) as [_ S' _ _ _|_ S' _ _ _|_ S' N V|_ S' N V|_ A' _ _]; try congruence;
    rewrite S', (forget_unlisted a k N); unfold is_send, has_val in *.
  - (* finished with success: a sender has given its value away, a receiver has got one *)
    destruct (kind_side (o_kind o)), (o_val o); try discriminate V; repeat split; discriminate.
  - (* terminated: a sender still has its value, and its kind says where that goes; a receiver has none *)
    destruct (kind_side (o_kind o)), (o_val o); try discriminate V; [destruct (o_kind o)|]; repeat split; discriminate.
Qed.

(* whatever the table holds at k, each of the three either is not enabled or makes an object leave,
   and neither hangs nor panics *)
Definition leave_step (a : aconf) (k : id) (r : aconf * out) : Prop :=
  (r = invalid a \/ exists o, lookup k (objs a) = Some o /\ leaves a k o r) /\ plain (r_res (snd r)).

Lemma invalid_leave_step a k r : r = invalid a -> leave_step a k r.
Proof. intros ->. split; [auto|split; discriminate]. Qed.

Lemma step_complete_case a k : Inv a -> leave_step a k (step_complete a k).
Proof.
  intros HI. destruct (lookup k (objs a)) as [o|] eqn:Ho;
    [|apply invalid_leave_step; unfold step_complete; rewrite Ho; reflexivity].
  destruct (kind_async (o_kind o)) eqn:A; [apply invalid_leave_step; unfold step_complete; rewrite Ho, A; reflexivity|].
  destruct (o_sig o) eqn:S; [apply invalid_leave_step; unfold step_complete; rewrite Ho, A, S; reflexivity|..];
    (destruct (step_complete_leaves a k o HI Ho A) as [Hl Hr]; [congruence|split; eauto]).
Qed.

Lemma step_timeout_case a k : Inv a -> leave_step a k (step_timeout a k).
Proof.
  intros HI. destruct (lookup k (objs a)) as [o|] eqn:Ho;
    [|apply invalid_leave_step; unfold step_timeout; rewrite Ho; reflexivity].
  destruct (kind_timed (o_kind o)) eqn:T; [|apply invalid_leave_step; unfold step_timeout; rewrite Ho, T; reflexivity].
  destruct (o_sig o) eqn:S; [|apply invalid_leave_step; unfold step_timeout; rewrite Ho, T, S; reflexivity..].
  destruct (step_timeout_leaves a k o HI Ho T S) as [Hl Hr]. split; [eauto|rewrite Hr; split; discriminate].
Qed.

Lemma step_drop_fut_case a f : Inv a -> leave_step a f (step_drop_fut a f).
Proof.
  intros HI. destruct (lookup f (objs a)) as [o|] eqn:Ho;
    [|apply invalid_leave_step; unfold step_drop_fut; rewrite Ho; reflexivity].
  destruct (kind_async (o_kind o)) eqn:A; [|apply invalid_leave_step; unfold step_drop_fut; rewrite Ho, A; reflexivity].
  rewrite (step_drop_fut_eq a f o HI Ho A). split; [right; exists o|split; discriminate].
  unfold leaves. simpl. rewrite app_nil_r. auto.
Qed.

(* what a future becomes when it reports its result, and when it joins the list *)
Definition retired (o o' : obj) : Prop :=
  o_kind o' = o_kind o /\ o_h o' = o_h o /\ o_fst o' = FDone /\ o_val o' = None.
Definition armed (o o' : obj) : Prop :=
  o_kind o' = o_kind o /\ o_h o' = o_h o /\ o_fst o' = FWaiting /\ o_sig o' = SLocked /\ o_val o' = o_val o.

Lemma retired_val o o' : retired o o' -> o_val o' = None.
Proof. intros (_ & _ & _ & V). exact V. Qed.
Lemma armed_val o o' : armed o o' -> o_val o' = o_val o.
Proof. intros (_ & _ & _ & _ & V). exact V. Qed.

(* a receive future or stream whose poll runs the critical section: never polled, or a stream that has
   delivered an item and is polled again *)
Definition fresh_recv (o : obj) : Prop :=
  (o_kind o = KRecvFut /\ o_fst o = FZero) \/
  (o_kind o = KStream /\ o_term o = false /\ (o_fst o = FZero \/ o_fst o = FDone)).

(* Every result of step_poll under the invariant.  First the polls that leave the state alone or only
   refresh the waker; then the one that finds the peer's verdict; then the first poll of a send future and
   of a receive future or stream, by the outcome of the critical section (a1 is its result: the future is
   still bound to o and unlisted there).  In pc_pending and pc_refresh f is listed; no proof needs that. *)
Inductive poll_case (a : aconf) (f : id) (w : N) : aconf * out -> Prop :=
| pc_invalid (Hn : forall o, lookup f (objs a) = Some o -> kind_async (o_kind o) = false) :
    poll_case a f w (invalid a)
| pc_pending o (Ho : lookup f (objs a) = Some o) (F : o_fst o = FWaiting) :
    poll_case a f w (a, out_of RPending)
| pc_refresh o (Ho : lookup f (objs a) = Some o) (F : o_fst o = FWaiting) :
    poll_case a f w (put a f (set_waker o (Some w)), out_of RPending)
| pc_panic o (Ho : lookup f (objs a) = Some o) (F : o_fst o = FDone)
    (K : o_kind o = KSendFut \/ o_kind o = KRecvFut) :
    poll_case a f w (a, out_of RPanic)
| pc_ended o (Ho : lookup f (objs a) = Some o) (K : o_kind o = KStream) (T : o_term o = true) :
    poll_case a f w (a, out_of RNone)
| pc_finished o o' res ds (Ho : lookup f (objs a) = Some o) (A : kind_async (o_kind o) = true)
    (F : o_fst o = FWaiting) (N : ~ In f (wait_list (ch a))) (R : retired o o')
    (Ev : res_received res ++ ds = match o_val o with Some x => [x] | None => [] end)
    (Hr : plain res) :
    poll_case a f w (put a f o', mkOut res ds [] [])
| pc_send_err o x e o' (Ho : lookup f (objs a) = Some o) (K : o_kind o = KSendFut) (F : o_fst o = FZero)
    (Hx : o_val o = Some x) (N : ~ In f (wait_list (ch a))) (E : cs_send a x = SCErr e) (R : retired o o') :
    poll_case a f w (put a f o', mkOut (RReadyErr e) [x] [] [])
| pc_send_sent o x a1 ws o' (Ho : lookup f (objs a) = Some o) (K : o_kind o = KSendFut) (F : o_fst o = FZero)
    (Hx : o_val o = Some x) (E : cs_send a x = SCSent a1 ws)
    (Ho1 : lookup f (objs a1) = Some o) (N1 : ~ In f (wait_list (ch a1))) (R : retired o o') :
    poll_case a f w (put a1 f o', mkOut RReadyOk [] ws [])
| pc_send_full o x a1 o1 (Ho : lookup f (objs a) = Some o) (K : o_kind o = KSendFut) (F : o_fst o = FZero)
    (Hx : o_val o = Some x) (E : cs_send a x = SCFull a1)
    (Ho1 : lookup f (objs a1) = Some o) (N1 : ~ In f (wait_list (ch a1))) (R : armed o o1) :
    poll_case a f w (with_ch (put a1 f o1) (push_wait (ch (put a1 f o1)) f), out_of RPending)
| pc_recv_closed o o' res (Ho : lookup f (objs a) = Some o) (Hf : fresh_recv o) (V : o_val o = None)
    (N : ~ In f (wait_list (ch a))) (E : cs_recv a = RCClosed) (R : retired o o')
    (Ev : res_received res = []) (Hr : plain res) :
    poll_case a f w (put a f o', mkOut res [] [] [])
| pc_recv_got o v a1 ws o' res (Ho : lookup f (objs a) = Some o) (Hf : fresh_recv o) (V : o_val o = None)
    (E : cs_recv a = RCGot v a1 ws)
    (Ho1 : lookup f (objs a1) = Some o) (N1 : ~ In f (wait_list (ch a1))) (R : retired o o')
    (Ev : res_received res = [v]) (Hr : plain res) :
    poll_case a f w (put a1 f o', mkOut res [] ws [])
| pc_recv_gone o a1 o' res (Ho : lookup f (objs a) = Some o) (Hf : fresh_recv o) (V : o_val o = None)
    (E : cs_recv a = RCNone a1) (Hc : send_count (ch a1) = 0%N)
    (Ho1 : lookup f (objs a1) = Some o) (N1 : ~ In f (wait_list (ch a1))) (R : retired o o')
    (Ev : res_received res = []) (Hr : plain res) :
    poll_case a f w (put a1 f o', mkOut res [] [] [])
| pc_recv_none o a1 o1 (Ho : lookup f (objs a) = Some o) (Hf : fresh_recv o) (V : o_val o = None)
    (E : cs_recv a = RCNone a1) (Hc : send_count (ch a1) <> 0%N)
    (Ho1 : lookup f (objs a1) = Some o) (N1 : ~ In f (wait_list (ch a1))) (R : armed o o1) :
    poll_case a f w (with_ch (put a1 f o1) (push_wait (ch (put a1 f o1)) f), out_of RPending).

(* what step_poll makes of the result of poll_recv, for a receive future and for a stream: its two
   matches on that result, as one function (convertible to them, so step_poll_case applies poll_recv_case
   to the goal as it stands) *)
Definition poll_recv_out (stream : bool) (f : id) (r : aconf * pollres * list tag * list N) : aconf * out :=
  let '(a1, p, ds, ws) := r in
  if stream then
    match p with
    | PPending => (a1, mkOut RPending ds ws [])
    | PReadyOkV x => (a1, mkOut (RSome x) ds ws [])
    | PReadyErr _ => (match lookup f (objs a1) with Some o1 => put a1 f (set_term o1 true) | None => a1 end,
                      mkOut RNone ds ws [])
    | PReadyOk | PPanic | PHang => (a1, mkOut RHang ds ws [])
    end
  else (a1, mkOut (match p with
                   | PPending => RPending | PReadyOk => RReadyOk | PReadyOkV x => RReadyOkV x
                   | PReadyErr e => RReadyErr e | PPanic => RPanic | PHang => RHang end) ds ws []).

Lemma poll_recv_zero_case a f o0 o w stream :
  Inv a -> lookup f (objs a) = Some o0 -> ~ In f (wait_list (ch a)) -> fresh_recv o0 -> o_val o0 = None ->
  o_kind o = o_kind o0 -> o_h o = o_h o0 -> o_sig o = SLocked -> o_val o = None ->
  poll_case a f w (poll_recv_out stream f (poll_recv_zero a f o w)).
Proof.
  intros HI Ho N Hfr V0 Hk Hh S V. unfold poll_recv_zero, poll_recv_out.
  assert (R : forall o', o_kind o' = o_kind o -> o_h o' = o_h o -> o_fst o' = FDone -> o_val o' = None -> retired o0 o')
    by (intros o' E1 E2 E3 E4; repeat split; congruence).
  pose proof (cs_recv_case a HI) as Hc. pose proof (recv_case_frame a HI) as Hf.
  (* by the outcome of the critical section, which is not RCCorrupt (Hc).  In a1 the future is bound and unlisted as
     in a (Ho1, N1: the frame).  A stream that reports an error also sets its `terminated` flag: a second put on f *)
  destruct (cs_recv a) as [|v a1 ws|a1|] eqn:E; [| | |inversion Hc].
  - destruct stream; [rewrite (lookup_put a f o0 _ Ho), put_put|];
      apply (pc_recv_closed a f w o0 _ _ Ho Hfr V0 N E); auto; split; discriminate.
  - pose proof (frame_lookup a a1 f o0 Hf N Ho) as Ho1. pose proof (proj2 (proj1 Hf f N)) as N1.
    destruct stream; apply (pc_recv_got a f w o0 v a1 ws _ _ Ho Hfr V0 E Ho1 N1); auto; split; discriminate.
  - pose proof (frame_lookup a a1 f o0 Hf N Ho) as Ho1. pose proof (proj2 (proj1 Hf f N)) as N1.
    destruct (N.eqb_spec (send_count (ch a1)) 0) as [E0|N0].
    + destruct stream; [rewrite (lookup_put a1 f o0 _ Ho1), put_put|];
        apply (pc_recv_gone a f w o0 a1 _ _ Ho Hfr V0 E E0 Ho1 N1); auto; split; discriminate.
    + destruct stream; apply (pc_recv_none a f w o0 a1 _ Ho Hfr V0 E N0 Ho1 N1); repeat split; simpl; congruence.
Qed.

Lemma poll_recv_case a f o w (stream : bool) :
  Inv a -> lookup f (objs a) = Some o ->
  (if stream then o_kind o = KStream /\ o_term o = false else o_kind o = KRecvFut) ->
  poll_case a f w (poll_recv_out stream f (poll_recv a f o w)).
Proof.
  intros HI Ho Hk. unfold poll_recv.
  assert (Hs : is_send o = false) by (unfold is_send; destruct stream; [destruct Hk as [-> _]|rewrite Hk]; reflexivity).
  assert (A : kind_async (o_kind o) = true) by (destruct stream; [destruct Hk as [-> _]|rewrite Hk]; reflexivity).
  assert (R : forall o', o_kind o' = o_kind o -> o_h o' = o_h o -> o_fst o' = FDone -> o_val o' = None -> retired o o')
    by (intros o' E1 E2 E3 E4; repeat split; assumption).
  destruct (stage_of a f o HI Ho) as [F S _ N V|F S L B V|F S N V|F S N V|F _ N V]; rewrite F, ?S; rewrite ?Hs in V.
  - (* never polled: the critical section *)
    apply (poll_recv_zero_case a f o o w stream HI Ho N); auto using has_val_false.
    destruct stream; [right; tauto|left; tauto].
  - (* listed: Pending, and the waker is replaced unless it is the one registered *)
    rewrite Hs in B. unfold recv_signal_exists. rewrite B. apply mem_in in L as M. rewrite M. cbn [negb].
    destruct (match o_waker o with Some w' => N.eqb w' w | None => false end);
      [destruct stream; apply (pc_pending a f w o Ho F)|destruct stream; apply (pc_refresh a f w o Ho F)].
  - (* finished with success: the value delivered goes out *)
    apply has_val_true in V as [v Hv]. rewrite Hv.
    destruct stream;
      (apply (pc_finished a f w o _ _ _ Ho A F N); [apply R; reflexivity|rewrite Hv; reflexivity|split; discriminate]).
  - (* terminated: it has no value; a stream also sets its `terminated` flag, a second put on f *)
    apply has_val_false in V.
    unfold poll_recv_out. destruct stream; [rewrite (lookup_put a f o _ Ho), put_put|];
      (apply (pc_finished a f w o _ _ _ Ho A F N); [apply R; auto|rewrite V; reflexivity|split; discriminate]).
  - (* done: a stream runs the critical section again, on a fresh signal; a future panics *)
    apply has_val_false in V. destruct stream.
    + destruct Hk as [K T]. rewrite K.
      apply (poll_recv_zero_case a f o _ w true HI Ho N); auto. right. auto.
    + rewrite Hk. apply (pc_panic a f w o); auto.
Qed.

Lemma step_poll_case a f w : Inv a -> poll_case a f w (step_poll a f w).
Proof.
  intros HI. unfold step_poll.
  destruct (lookup f (objs a)) as [o|] eqn:Ho; [|apply pc_invalid; congruence].
  assert (Hinv : kind_async (o_kind o) = false -> poll_case a f w (invalid a))
    by (intros A; apply pc_invalid; intros o' E; assert (o' = o) as -> by congruence; exact A).
  destruct (o_kind o) eqn:K; try (apply Hinv; reflexivity).
  - unfold poll_send. assert (Hs : is_send o = true) by (unfold is_send; rewrite K; reflexivity).
    assert (A : kind_async (o_kind o) = true) by (rewrite K; reflexivity).
    assert (R : retired o (set_fst (set_val o None) FDone)) by (repeat split).
    destruct (stage_of a f o HI Ho) as [F S _ N V|F S L B V|F S N V|F S N V|F _ N V]; rewrite F, ?S; rewrite ?Hs in V.
    + (* never polled: the critical section; in a1 the future is bound and unlisted as in a (the frame) *)
      apply has_val_true in V as [x Hx]. rewrite Hx.
      pose proof (send_case_frame a x HI) as Hf.
      destruct (cs_send a x) as [e|a1 ws|a1] eqn:E.
      * apply (pc_send_err a f w o x e _ Ho K F Hx N E R).
      * apply (pc_send_sent a f w o x a1 ws _ Ho K F Hx E (frame_lookup a a1 f o Hf N Ho) (proj2 (proj1 Hf f N)) R).
      * apply (pc_send_full a f w o x a1 _ Ho K F Hx E (frame_lookup a a1 f o Hf N Ho) (proj2 (proj1 Hf f N))).
        repeat split; exact S.
    + (* listed: Pending, and the waker is replaced unless it is the one registered *)
      rewrite Hs in B. unfold send_signal_exists. rewrite B. apply mem_in in L as M. rewrite M. cbn [negb].
      destruct (match o_waker o with Some w' => N.eqb w' w | None => false end);
        [apply (pc_pending a f w o Ho F)|apply (pc_refresh a f w o Ho F)].
    + (* finished with success: the value has been taken *)
      apply has_val_false in V.
      apply (pc_finished a f w o _ _ _ Ho A F N); [repeat split; auto|rewrite V; reflexivity|split; discriminate].
    + (* terminated: the value it still has is destroyed *)
      apply has_val_true in V as [x Hx]. rewrite Hx.
      apply (pc_finished a f w o _ _ _ Ho A F N R); [rewrite Hx; reflexivity|split; discriminate].
    + (* done *)
      apply (pc_panic a f w o); auto.
  - apply (poll_recv_case a f o w false HI Ho K).
  - destruct (o_term o) eqn:T; [apply (pc_ended a f w o); auto|].
    apply (poll_recv_case a f o w true HI Ho (conj K T)).
Qed.

(* How the theorems about `astep a l` walk through the labels.  A property that unfolds to something that
   computes is first folded under a name (`change (P a (astep a l))`), so that after the label is split
   every goal still shows the step function it is about.  The split takes with it the optional value and the
   `busy` flag of the labels that carry one: their other branch is `(a, ..)` or `invalid a`.  The goals come
   in the order of the constructors of `label`, with the names given here. *)
Ltac by_label l :=
  destruct l as [h h'|h|h|h o|k h x|k h x|k h [x|]|h x|h [x|]|h x [|]|h [x|] [|]|k h|k h early|h|h [|]|h
                |k|k|f h x|f h|f h|f w|f|f].
