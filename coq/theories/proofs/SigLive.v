(* SigLive.v - C06, progress of the hand-off protocol, on the finite set of reachable protocol states
   (SigProof.reachable_set, for the orderings of the current source).
   Waiting steps (a pause, a spurious return of park, a spurious poll that finds nothing new, a load that
   leaves the owner where it was) may be repeated any number of times; every other step is "genuine".
     (1) a peer that has claimed a signal is never blocked and is done after at most 7 of its own steps;
     (2) once the peer is done, the owner always has a genuine step until its wait has ended, and is
         finished after a bounded number of genuine steps (a rank decreases): no lost wake-up, no wait
         for something that will not come;
     (3) a timed owner that nobody claims finishes after a bounded number of genuine steps once the
         deadline has passed (the passing of the deadline is a genuine step).
   With a fair scheduler (every thread that can take a genuine step eventually takes one) this gives
   termination of every claimed hand-off; the fairness argument itself is not part of the theorem.
   Here are the tables and their checks over the reachable set; the statements read off them through
   progress_reachable are c06_claiming_peer_never_blocks .. c06_timed_owner_alone_finishes (props/C06.v). *)
From KV Require Import Sig.
From KV.proofs Require Import SigProof.
From Coq Require Import Arith.

Definition genuine (e : sev) : bool :=
  match e with EPause | EPark false | EWakerReadOwner | EReRegister => false | _ => true end.

Definition steps_of (evs : list sev) (s : sigst) : list sigst :=
  flat_map (fun e => if genuine e
                     then match sstep s e with Some s' => if sigst_beq s' s then [] else [s'] | None => [] end
                     else []) evs.

Definition own_next (s : sigst) : list sigst :=
  if s_viol s then [] else steps_of (owner_events actual_ords s) s.
Definition peer_next (s : sigst) : list sigst :=
  if s_viol s then [] else steps_of (claimer_events actual_ords s) s.

Lemma steps_of_snext evs s s' :
  incl evs (owner_events actual_ords s ++ claimer_events actual_ords s) ->
  In s' (if s_viol s then [] else steps_of evs s) -> In s' (snext actual_ords s).
Proof.
  intros Hsub. unfold snext, steps_of. destruct (s_viol s); [intros []|]. rewrite !in_flat_map.
  intros (e & He & Hin). exists e. split; [apply Hsub; exact He|].
  destruct (genuine e); [|destruct Hin]. destruct (sstep s e) as [s1|]; [|destruct Hin].
  destruct (sigst_beq s1 s); [destruct Hin|exact Hin].
Qed.

Lemma own_next_sub s s' : In s' (own_next s) -> In s' (snext actual_ords s).
Proof. apply steps_of_snext, incl_appl, incl_refl. Qed.

Lemma peer_next_sub s s' : In s' (peer_next s) -> In s' (snext actual_ords s).
Proof. apply steps_of_snext, incl_appr, incl_refl. Qed.

(* in a state of `dom`: unless `fin`, `next` offers a step; every step of `next` keeps `inv` and lowers `rank` *)
Definition progress_ok (dom fin inv : sigst -> bool) (next : sigst -> list sigst) (rank : sigst -> nat)
    (s : sigst) : bool :=
  negb (dom s) ||
  ((fin s || match next s with [] => false | _ => true end)
   && forallb (fun s' => inv s' && Nat.ltb (rank s') (rank s)) (next s)).

Lemma progress_reachable dom fin inv next rank :
  forallb (progress_ok dom fin inv next rank) reachable_set = true ->
  forall i s, In i sinits -> reach (snext actual_ords) i s -> dom s = true ->
  (fin s = true \/ next s <> []) /\ forall s', In s' (next s) -> inv s' = true /\ rank s' < rank s.
Proof.
  intros Hall i s Hi Hr Hd. pose proof (reachable_forall _ Hall i s Hi Hr) as H.
  unfold progress_ok in H. rewrite Hd in H. apply andb_prop in H as [Hne Hstep]. split.
  - apply Bool.orb_prop in Hne as [Hf|Hn]; [left; exact Hf|right].
    destruct (next s); discriminate.
  - intros s' Hs'. rewrite forallb_forall in Hstep. specialize (Hstep s' Hs').
    apply andb_prop in Hstep. rewrite Nat.ltb_lt in Hstep. exact Hstep.
Qed.

Definition cdone (s : sigst) : bool := match s_c s with CDone => true | _ => false end.
Definition ended (s : sigst) : bool := match s_o s with OEnded => true | _ => false end.
Definition never (_ : sigst) : bool := false.
Definition always (_ : sigst) : bool := true.

Lemma cdone_iff s : cdone s = true <-> s_c s = CDone.
Proof. unfold cdone. destruct (s_c s); split; congruence. Qed.

Lemma ended_eq s : ended s = true -> s_o s = OEnded.
Proof. unfold ended. destruct (s_o s); congruence. Qed.

(* (1) the peer; the rank counts its remaining steps from the claim on (CNone is outside peer_busy) *)
Definition crank (c : cpc) : nat :=
  match c with CNone => 8 | CClaimed => 7 | CSlotDone => 6 | CKindRead => 5 | CCasFailed => 4 | CWakerRead => 3 | CStored => 2 | CDone => 0 end.

Definition peer_busy (s : sigst) : bool := match s_c s with CNone | CDone => false | _ => true end.

Lemma peer_ok_all :
  forallb (progress_ok peer_busy never always peer_next (fun s => crank (s_c s))) reachable_set = true.
Proof. rewrite reachable_set_eq. vm_compute. reflexivity. Qed.

Definition rk_lookup (tab : list (sigst * nat)) (s : sigst) : nat :=
  match find (fun p => sigst_beq (fst p) s) tab with Some p => snd p | None => 0 end.

Definition rk_relax (dom : list sigst) (next : sigst -> list sigst) (tab : list (sigst * nat)) : list (sigst * nat) :=
  map (fun s => (s, match next s with [] => 0 | l => S (fold_left Nat.max (map (rk_lookup tab) l) 0) end)) dom.

Fixpoint rk_iter (n : nat) (dom : list sigst) (next : sigst -> list sigst) (tab : list (sigst * nat)) :=
  match n with O => tab | S k => rk_iter k dom next (rk_relax dom next tab) end.

(* (2) the owner, once the peer is done *)
(* 40 rounds of relaxation, here and for tab3: were they too few, the ranks would not decrease along every
   step and the checks owner_ok_all / timed_ok_all below would fail *)
Definition dom2 : list sigst := Eval vm_compute in filter cdone reachable_set.
Definition tab2 : list (sigst * nat) := Eval vm_compute in rk_iter 40 dom2 own_next (map (fun s => (s, 0)) dom2).
Definition orank (s : sigst) : nat := rk_lookup tab2 s.

Lemma owner_ok_all : forallb (progress_ok cdone ended cdone own_next orank) reachable_set = true.
Proof. rewrite reachable_set_eq. vm_compute. reflexivity. Qed.

(* (3) the timed owner that nobody claims *)
Definition alone_timed (s : sigst) : bool := s_timed s && match s_c s with CNone => true | _ => false end.
Definition dom3 : list sigst := Eval vm_compute in filter alone_timed reachable_set.
Definition next3 (s : sigst) : list sigst := filter alone_timed (own_next s).
Definition tab3 : list (sigst * nat) := Eval vm_compute in rk_iter 40 dom3 next3 (map (fun s => (s, 0)) dom3).
Definition trank (s : sigst) : nat := rk_lookup tab3 s.

Lemma timed_ok_all : forallb (progress_ok alone_timed ended always next3 trank) reachable_set = true.
Proof. rewrite reachable_set_eq. vm_compute. reflexivity. Qed.

(* sequences of genuine owner steps (c06_owner_steps_bounded: none is longer than the rank of its first state) *)
Inductive opath : sigst -> list sigst -> Prop :=
| op_nil s : opath s []
| op_cons s s' p : In s' (own_next s) -> opath s' p -> opath s (s' :: p).

