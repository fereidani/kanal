(* NoHang.v - totality of the model on reachable states: the outcome RHang ("cannot happen":
   a listed sender without a value, a claimed-but-unfinished signal met by an atomic step, ...)
   is never produced, and RPanic is produced only by the documented panics (a `None` option,
   polling a finished future). *)
From KV Require Import Atomic.
From KV.proofs Require Import Inv Cases StepInv.

Definition bad (r : res) : bool := match r with RHang => true | _ => false end.

Definition documented_panic (a : aconf) (l : label) : Prop :=
  match l with
  | LSendOptTimeout _ _ None | LTrySendOpt _ None | LTrySendOptRT _ None _ => True
  | LPoll f _ => exists o, lookup f (objs a) = Some o /\ o_fst o = FDone /\ (o_kind o = KSendFut \/ o_kind o = KRecvFut)
  | _ => False
  end.

Lemma cs_recv_not_corrupt a : Inv a -> cs_recv a <> RCCorrupt.
Proof. intros HI E. pose proof (cs_recv_case a HI) as H. rewrite E in H. inversion H. Qed.

Lemma step_send_like_plain a k h x kd : plain (r_res (snd (step_send_like a k h x kd))).
Proof.
  unfold step_send_like. destruct (_ || _); [split; discriminate|].
  destruct (cs_send a x); [destruct kd|..]; split; discriminate.
Qed.

Lemma step_try_send_plain a h x opt : plain (r_res (snd (step_try_send a h x opt))).
Proof.
  unfold step_try_send. destruct (negb _); [split; discriminate|].
  destruct (cs_send a x), opt; split; discriminate.
Qed.

Lemma step_recv_like_plain a k h timed early : Inv a -> plain (r_res (snd (step_recv_like a k h timed early))).
Proof.
  intros HI%cs_recv_not_corrupt. unfold step_recv_like. destruct (_ || _); [split; discriminate|].
  destruct (cs_recv a) as [|v a1 ws|a1|]; [..|contradiction]; try (split; discriminate).
  destruct (timed && early); [|destruct (N.eqb _ 0)]; split; discriminate.
Qed.

Lemma step_try_recv_plain a h : Inv a -> plain (r_res (snd (step_try_recv a h))).
Proof.
  intros HI%cs_recv_not_corrupt. unfold step_try_recv. destruct (negb _); [split; discriminate|].
  destruct (cs_recv a) as [|v a1 ws|a1|]; [..|contradiction]; try (split; discriminate).
  destruct (N.eqb _ 0); split; discriminate.
Qed.

Lemma step_drain_plain a h : Inv a -> plain (r_res (snd (step_drain a h))).
Proof.
  intros HI. unfold step_drain. destruct (step_drain_runs a HI) as (ys & os2 & ws & -> & _).
  destruct (negb _); [split; discriminate|]. destruct (N.eqb _ 0); split; discriminate.
Qed.

Lemma step_clone_plain a h h' : plain (r_res (snd (step_clone a h h'))).
Proof. unfold step_clone. destruct (handle_side a h); [destruct (handle_side a h')|]; split; discriminate. Qed.

Lemma step_drop_handle_plain a h : plain (r_res (snd (step_drop_handle a h))).
Proof.
  unfold step_drop_handle. destruct (handle_side a h); [destruct (borrowed a h)|]; try (split; discriminate).
  destruct (match s with SSend => _ | SRecv => _ end) as [a1 ws]. destruct (remove_key h (handles a)); split; discriminate.
Qed.

Lemma step_close_plain a h : plain (r_res (snd (step_close a h))).
Proof.
  unfold step_close. destruct (handle_side a h); [destruct (_ && _)|]; try (split; discriminate).
  destruct (terminate_signals _). split; discriminate.
Qed.

Lemma step_obs_plain a h o : plain (r_res (snd (step_obs a h o))).
Proof. unfold step_obs. destruct (handle_side a h) as [[]|]; [destruct o..|]; split; discriminate. Qed.

Lemma step_mk_plain a f h kd v : plain (r_res (snd (step_mk a f h kd v))).
Proof. unfold step_mk. destruct (_ || _); split; discriminate. Qed.

Lemma step_stream_term_plain a f : plain (r_res (snd (step_stream_term a f))).
Proof. unfold step_stream_term. destruct (lookup f (objs a)) as [o|]; [destruct (o_kind o)|]; split; discriminate. Qed.

Lemma step_poll_res a f w :
  Inv a -> let r := r_res (snd (step_poll a f w)) in r <> RHang /\ (r = RPanic -> documented_panic a (LPoll f w)).
Proof.
  (* the result is explicit, or `plain` by Hr, in every case but pc_panic, which is the documented one *)
  intros HI. destruct (step_poll_case a f w HI); simpl; try (split; discriminate);
    try (destruct Hr as [H1 H2]; split; [exact H1|contradiction]).
  split; [discriminate|]. intros _. exists o. auto.
Qed.

Lemma astep_res a l :
  Inv a -> let r := r_res (snd (astep a l)) in r <> RHang /\ (r = RPanic -> documented_panic a l).
Proof.
  intros HI.
  assert (Hp : forall r, plain r -> r <> RHang /\ (r = RPanic -> documented_panic a l)) by (intros r [H1 H2]; tauto).
  by_label l; simpl; try (destruct (is_side a h _); split; (discriminate || exact (fun _ => I)));
    auto using step_send_like_plain, step_try_send_plain, step_recv_like_plain, step_try_recv_plain,
      step_drain_plain, step_clone_plain, step_drop_handle_plain, step_close_plain, step_obs_plain,
      step_mk_plain, step_stream_term_plain.
  - apply Hp, (proj2 (step_complete_case a k HI)).
  - apply Hp, (proj2 (step_timeout_case a k HI)).
  - apply step_poll_res, HI.
  - apply Hp, (proj2 (step_drop_fut_case a f HI)).
Qed.
