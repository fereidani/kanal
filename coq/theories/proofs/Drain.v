(* Drain.v - C19: drain_into takes everything available, in order, and reports it exactly *)
From KV Require Import Atomic.
From KV.proofs Require Import Inv Fifo.

Theorem drain_spec a h :
  Inv a -> is_side a h SRecv = true -> recv_count (ch a) <> 0%N ->
  exists a' ws,
    step_drain a h = (a', mkOut (RDrain (len (pending a)) (pending a)) [] ws []) /\
    pending a' = [] /\ queue (ch a') = [].
Proof.
  intros HI Hs Hr. destruct (step_drain_spec a h HI Hs Hr) as (a' & ws & E & Hp & Hq & _). eauto.
Qed.

