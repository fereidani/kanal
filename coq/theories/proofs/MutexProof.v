(* MutexProof.v - C17: mutual exclusion, hand-over of the protected data, try never waits,
   blocking acquisition; for any number of threads and any interleaving.
   The lock word abstracts to its holder [h : option N]: [MInv] says how the concrete state is
   determined by it, [mstep_inv] that an event moves it in one of the three ways of
   [lmove] (acquire, release, stay).  The statements of C17 are read off the invariant ([mutual_exclusion],
   [handover], [lock_succeeds_once_free]) or off what one CAS does to the caller's own program
   counter ([cas_spec]: the rest). *)
From KV Require Import Mutex.

Record MInv (rel_acq : bool) (s : mstate) (h : option N) : Prop := mkMInv {
  mi_hold : forall t, m_pc s t = MHold <-> h = Some t;
  mi_flag : m_flag s = if h then true else false;
  mi_tok : rel_acq = true -> m_owner s = h /\ m_deposited s = if h then false else true
}.

(* how an event of thread t moves the holder *)
Inductive lmove (t : N) : option N -> option N -> Prop :=
| lm_acquire : lmove t None (Some t)
| lm_release : lmove t (Some t) None
| lm_stay h : lmove t h h.

Lemma upd_same pc t v : upd pc t v t = v.
Proof. unfold upd. rewrite N.eqb_refl. reflexivity. Qed.
Lemma upd_other pc t v x : x <> t -> upd pc t v x = pc x.
Proof. unfold upd. intros H. destruct (N.eqb_spec x t); [congruence|reflexivity]. Qed.

Lemma minit_inv b : MInv b minit None.
Proof. constructor; [split; discriminate|reflexivity|auto]. Qed.

(* a CAS succeeds exactly on a clear flag, sets it, moves only the caller, and withdraws the
   token when it acquires a deposited one *)
Lemma cas_spec o_s s t ok fpc s' : cas o_s s t ok fpc = Some s' ->
  m_flag s = negb ok /\ m_flag s' = true /\ m_pc s' = upd (m_pc s) t (if ok then MHold else fpc) /\
  (m_owner s', m_deposited s') =
    if ok && is_acq o_s && m_deposited s then (Some t, false) else (m_owner s, m_deposited s).
Proof.
  unfold cas. destruct (m_flag s), ok; try discriminate; simpl;
    [|destruct (is_acq o_s && m_deposited s)]; intros [= <-]; auto.
Qed.

Lemma mstep_pc_other o_s o_u s t e s' u :
  mstep o_s o_u s t e = Some s' -> u <> t -> m_pc s' u = m_pc s u.
Proof.
  intros E Hu. unfold mstep in E. destruct e; destruct (m_pc s t); try discriminate.
  (* the six enabled pairs of event and pc, in the order of mevent: three CAS, a pause, the unlock, an access *)
  1-3: apply cas_spec in E as (_ & _ & -> & _); apply upd_other, Hu.
  1,3: injection E as <-; reflexivity.
  destruct (m_owner s) as [t'|]; [destruct (N.eqb t' t)|]; injection E as <-; apply upd_other, Hu.
Qed.

Lemma cas_inv o_s o_u s h t ok fpc s' :
  MInv (mutex_ords_ok o_s o_u) s h -> m_pc s t <> MHold -> fpc <> MHold ->
  cas o_s s t ok fpc = Some s' -> exists h', lmove t h h' /\ MInv (mutex_ords_ok o_s o_u) s' h'.
Proof.
  intros [Hh Hf Ht] Hpc Hfpc E. apply cas_spec in E as (Fl & Fl' & Pc & Tok). rewrite Hf in Fl.
  destruct ok.
  - (* success: the flag was clear, so nobody held *)
    destruct h; [discriminate|]. exists (Some t). split; [constructor|].
    constructor; [intros x; rewrite Pc|exact Fl'|].
    + destruct (N.eq_dec x t) as [->|Hx]; [rewrite upd_same; tauto|].
      rewrite upd_other, Hh by exact Hx. split; congruence.
    + intros Hr. destruct (Ht Hr) as [_ Hd]. apply andb_prop in Hr as [Ha _].
      rewrite Ha, Hd in Tok. injection Tok as -> ->. auto.
  - (* failure: only the caller's pc changes, to a non-holding one *)
    exists h. split; [constructor|]. injection Tok as Ho Hd.
    constructor; [intros x; rewrite Pc|destruct h; [exact Fl'|discriminate]|rewrite Ho, Hd; exact Ht].
    destruct (N.eq_dec x t) as [->|Hx]; [|rewrite upd_other by exact Hx; apply Hh].
    rewrite upd_same, <- Hh. tauto.
Qed.

Theorem mstep_inv o_s o_u s h t e s' :
  MInv (mutex_ords_ok o_s o_u) s h -> mstep o_s o_u s t e = Some s' ->
  exists h', lmove t h h' /\ MInv (mutex_ords_ok o_s o_u) s' h'.
Proof.
  intros HI. unfold mstep. destruct e; destruct (m_pc s t) eqn:Hpc; try discriminate.
  (* the enabled pairs as in mstep_pc_other: the three CAS; a pause and an access change nothing *)
  1-3: apply cas_inv; [exact HI|congruence|discriminate].
  1,3: intros [= <-]; exists h; split; [constructor|exact HI].
  (* unlock: the caller is the holder *)
  destruct HI as [Hh Hf Ht]. apply Hh in Hpc as ->. intros E. exists None. split; [constructor|].
  assert (Pc : m_flag s' = false /\ m_pc s' = upd (m_pc s) t MIdle).
  { destruct (m_owner s) as [t'|]; [destruct (N.eqb t' t)|]; injection E as <-; auto. }
  destruct Pc as [Fl Pc]. constructor; [intros x; rewrite Pc|exact Fl|].
  - destruct (N.eq_dec x t) as [->|Hx]; [rewrite upd_same; split; discriminate|].
    rewrite upd_other, Hh by exact Hx. split; congruence.
  - intros Hr. destruct (Ht Hr) as [Ho _]. rewrite Ho, N.eqb_refl in E. injection E as <-.
    apply andb_prop in Hr as [_ ->]. auto.
Qed.

Theorem mrun_inv o_s o_u tr : forall s h s',
  MInv (mutex_ords_ok o_s o_u) s h -> mrun o_s o_u s tr = Some s' ->
  exists h', MInv (mutex_ords_ok o_s o_u) s' h'.
Proof.
  induction tr as [|[t e] tr IH]; intros s h s' HI; simpl.
  - intros [= <-]. eauto.
  - destruct (mstep o_s o_u s t e) as [s1|] eqn:E1; [|discriminate].
    destruct (mstep_inv _ _ _ _ _ _ _ HI E1) as (h1 & _ & HI1). exact (IH s1 h1 s' HI1).
Qed.

(* at most one thread is inside a critical section *)
Theorem mutual_exclusion o_s o_u tr s t1 t2 :
  mrun o_s o_u minit tr = Some s -> m_pc s t1 = MHold -> m_pc s t2 = MHold -> t1 = t2.
Proof.
  intros E. destruct (mrun_inv _ _ _ _ _ _ (minit_inv _) E) as [h HI].
  rewrite !(mi_hold _ _ _ HI). congruence.
Qed.

(* with a releasing unlock and an acquiring lock, whoever is inside owns the protected data:
   every access inside a critical section is race free and sees everything earlier holders did *)
Theorem handover o_s o_u tr s t :
  mutex_ords_ok o_s o_u = true ->
  mrun o_s o_u minit tr = Some s -> m_pc s t = MHold -> access_safe s t = true.
Proof.
  intros Hok E Hh. destruct (mrun_inv _ _ _ _ _ _ (minit_inv _) E) as [h HI].
  apply (mi_hold _ _ _ HI) in Hh as ->. destruct (mi_tok _ _ _ HI Hok) as [Ho _].
  unfold access_safe. rewrite Ho. apply N.eqb_refl.
Qed.

(* the protected data is accessed only from inside a critical section *)
Theorem access_only_inside o_s o_u s t s' : mstep o_s o_u s t MAccess = Some s' -> m_pc s t = MHold.
Proof. unfold mstep. destruct (m_pc s t); try discriminate. reflexivity. Qed.

(* a non-blocking attempt is one event and never leaves the thread waiting *)
Theorem try_lock_never_waits o_s o_u s t ok s' :
  mstep o_s o_u s t (MTryLock ok) = Some s' ->
  (ok = true /\ m_pc s' t = MHold) \/ (ok = false /\ m_pc s' t = MIdle /\ m_flag s = true).
Proof.
  unfold mstep. destruct (m_pc s t); try discriminate. intros E.
  apply cas_spec in E as (Fl & _ & -> & _). rewrite upd_same. destruct ok; auto.
Qed.

(* blocking acquisition: a thread inside lock() leaves the retry loop only through a successful CAS *)
Theorem lock_returns_only_with_the_lock o_s o_u s t e s' :
  m_pc s t = MSpin -> mstep o_s o_u s t e = Some s' ->
  m_pc s' t = MSpin \/ (e = MLockCas true /\ m_pc s' t = MHold).
Proof.
  intros Hpc. unfold mstep. rewrite Hpc. destruct e; try discriminate.
  - intros E. apply cas_spec in E as (_ & _ & -> & _). rewrite upd_same. destruct ok; auto.
  - intros [= <-]. auto.
Qed.

(* ... and an attempt made while nobody holds the lock succeeds (strong compare_exchange) *)
Theorem lock_succeeds_once_free o_s o_u tr s t :
  mrun o_s o_u minit tr = Some s -> (forall x, m_pc s x <> MHold) ->
  (exists s', mstep o_s o_u s t (MLockCas true) = Some s' /\ m_pc s' t = MHold) /\
  mstep o_s o_u s t (MLockCas false) = None.
Proof.
  intros E Hfree. pose proof (Hfree t) as Ht. destruct (mrun_inv _ _ _ _ _ _ (minit_inv _) E) as [h HI].
  assert (Fl : m_flag s = false).
  { rewrite (mi_flag _ _ _ HI). destruct h as [x|]; [|reflexivity]. destruct (Hfree x). apply HI. reflexivity. }
  assert (C : forall fpc, (exists s', cas o_s s t true fpc = Some s' /\ m_pc s' t = MHold) /\
                          cas o_s s t false fpc = None).
  { intros fpc. unfold cas. rewrite Fl. split; [|reflexivity].
    eexists. split; [reflexivity|]. destruct (is_acq o_s && m_deposited s); apply upd_same. }
  unfold mstep. destruct (m_pc s t); [apply C|apply C|contradiction].
Qed.

(* an unordered unlock breaks the hand-over (so the ordering requirement is not vacuous) *)
Example relaxed_unlock_loses_the_data :
  exists tr s, mrun Acquire Relaxed minit tr = Some s /\ m_pc s 2%N = MHold /\ access_safe s 2%N = false.
Proof.
  exists [(1%N, MLockCas true); (1%N, MUnlock); (2%N, MLockCas true)].
  eexists. split; [vm_compute; reflexivity|]. split; reflexivity.
Qed.
