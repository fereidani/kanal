(* DeadlineProof.v - C13, deadline half: `timeout_owes`, what a run of Deadline.v that ends in Timeout still
   has to read, from every state (so Timeout is never reported before the deadline), and `loop_exit`, how the
   waiting loop is left *)
From KV Require Import Deadline.
From Coq Require Import List NArith Lia.

(* What a run that ends in Timeout u still has to read, seen from each state: before the first
   reading everything (the statement of the theorem); once the deadline is fixed it is u, and while
   the call can still wait a reading at or past it is to come; a peer's completion rules Timeout out. *)
Definition owes (dur u : N) (s : tpc) (rs : list N) : Prop :=
  match s with
  | TStart => exists t0 rest v, rs = t0 :: rest /\ u = (t0 + dur)%N /\ In v rs /\ (t0 + dur <= v)%N
  | TEarly u0 | TWait u0 => u0 = u /\ exists v, In v rs /\ (u <= v)%N
  | TExpired u0 | TTimeout u0 => u0 = u
  | TOther => False
  end.

Lemma timeout_owes dur re u : forall tr s,
  trun dur re s tr = Some (TTimeout u) -> owes dur u s (readings tr).
Proof.
  induction tr as [|e r IH]; intros s E; simpl in E.
  - injection E as ->. reflexivity.
  - destruct (tstep dur re s e) as [s1|] eqn:E1; [|discriminate]. apply IH in E.
    destruct s as [|u0|u0|u0|u0|], e as [v| |]; try discriminate; injection E1 as <-; simpl.
    + assert (owes dur u (TWait (v + dur)) (readings r)) as (<- & w & Hw & Hle) by (destruct re; exact E).
      exists v, (readings r), w. auto.
    + destruct (N.ltb_spec u0 v).
      * simpl in E. subst u0. split; [reflexivity|]. exists v. split; [left; reflexivity|lia].
      * destruct E as (-> & w & Hw & Hle). split; [reflexivity|]. exists w. auto.
    + destruct (N.ltb_spec v u0).
      * destruct E as (-> & w & Hw & Hle). split; [reflexivity|]. exists w. auto.
      * simpl in E. subst u0. split; [reflexivity|]. exists v. split; [left; reflexivity|lia].
    + destruct E.
    + destruct E.
    + exact E.
Qed.

(* the waiting loop is left only by a reading at or past the deadline, or because a peer finished *)
Theorem loop_exit u v dur re : tstep dur re (TWait u) (Now v) = Some (TExpired u) -> (u <= v)%N.
Proof. simpl. destruct (N.ltb_spec v u); [discriminate|lia]. Qed.
