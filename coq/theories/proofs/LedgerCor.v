(* LedgerCor.v - what conservation gives when the offered values are pairwise distinct (C01, C05), and what
   the result of try_send says about the value (C05, C14: by unfolding, no conservation needed) *)
From KV Require Import Atomic.
From KV.proofs Require Import Ledger.

(* with pairwise distinct offered values: nothing is delivered, destroyed or kept twice *)
Theorem exactly_once b cap ls :
  NoDup (offered_run (init b cap) ls) ->
  let '(a, os) := arun (init b cap) ls in
  NoDup (outs_received os ++ outs_dropped os ++ outs_back os ++ held a) /\
  (forall x, In x (outs_received os) -> In x (offered_run (init b cap) ls)) /\
  (forall x, In x (offered_run (init b cap) ls) ->
             In x (outs_received os) \/ In x (outs_dropped os) \/ In x (outs_back os) \/ In x (held a)).
Proof.
  intros Hnd. pose proof (ledger_conservation b cap ls) as H.
  destruct (arun (init b cap) ls) as [a os]. split; [|split].
  - exact (Permutation_NoDup H Hnd).
  - intros x Hx. apply (Permutation_in x (Permutation_sym H)), in_or_app. left. exact Hx.
  - intros x Hx. destruct (in_app_or _ _ _ (Permutation_in x H Hx)) as [?|[?|[?|?]%in_app_or]%in_app_or]; auto.
Qed.

(* a value that was received was not also destroyed or handed back, and is not still held *)
Corollary received_not_elsewhere b cap ls x :
  NoDup (offered_run (init b cap) ls) ->
  let '(a, os) := arun (init b cap) ls in
  In x (outs_received os) -> ~ In x (outs_dropped os) /\ ~ In x (outs_back os) /\ ~ In x (held a).
Proof.
  intros Hnd. pose proof (exactly_once b cap ls Hnd) as H.
  destruct (arun (init b cap) ls) as [a os]. destruct H as (H & _ & _).
  intros (r1 & r2 & E)%in_split. rewrite E, <- app_assoc in H. apply NoDup_remove_2 in H.
  repeat split; intros Hc; apply H; apply in_or_app; right; apply in_or_app; right; auto 6 using in_or_app.
Qed.

Lemma try_send_refused a h x opt :
  (exists e, r_res (snd (step_try_send a h x opt)) = RErr e) \/ r_res (snd (step_try_send a h x opt)) = ROkB false ->
  out_tags (snd (step_try_send a h x opt)) = [x] /\
  r_back (snd (step_try_send a h x opt)) = (if opt then [x] else []).
Proof.
  unfold step_try_send. destruct (negb _); [intros [[e H]|H]; discriminate|].
  destruct (cs_send a x); destruct opt; try (split; reflexivity); intros [[e H]|H]; discriminate.
Qed.

Lemma try_send_accepted a h x opt :
  r_res (snd (step_try_send a h x opt)) = ROkB true ->
  out_tags (snd (step_try_send a h x opt)) = [] .
Proof.
  unfold step_try_send. destruct (negb _); [discriminate|].
  destruct (cs_send a x); destruct opt; try reflexivity; discriminate.
Qed.
