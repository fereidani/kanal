(* Ledger.v - conservation of messages (C01, C05): in every step of the Atomic
   model from a configuration that satisfies Inv, the values offered by the call plus the values held by the channel
   before the step are, as a multiset, exactly the values received, destroyed
   and handed back by the call plus the values held afterwards. *)
From KV Require Import Atomic.
From KV.proofs Require Import Assoc Inv Cases StepInv.
From Coq Require Import PeanoNat.

Definition oval (o : obj) : list tag := match o_val o with Some v => [v] | None => [] end.
Fixpoint vals (os : list (id * obj)) : list tag :=
  match os with [] => [] | (_, o) :: r => oval o ++ vals r end.

(* every value inside the channel: the buffer, blocked senders' values, values
   delivered to blocked receivers and not yet picked up, values inside futures *)
Definition held (a : aconf) : list tag := queue (ch a) ++ vals (objs a).

Definition cnt (t : tag) (l : list tag) : nat := count_occ N.eq_dec l t.

Global Arguments cnt : simpl never.
Lemma cnt_app t l1 l2 : cnt t (l1 ++ l2) = cnt t l1 + cnt t l2.
Proof. apply count_occ_app. Qed.
Lemma cnt_nil t : cnt t [] = 0.
Proof. reflexivity. Qed.
Lemma cnt_cons t x l : cnt t (x :: l) = cnt t [x] + cnt t l.
Proof. apply (cnt_app t [x] l). Qed.

Lemma oval_some o x : o_val o = Some x -> oval o = [x].
Proof. unfold oval. intros ->. reflexivity. Qed.
Lemma oval_none o : o_val o = None -> oval o = [].
Proof. unfold oval. intros ->. reflexivity. Qed.

Lemma vals_mid t l1 k o l2 : cnt t (vals (l1 ++ (k, o) :: l2)) = cnt t (oval o) + cnt t (vals (l1 ++ l2)).
Proof.
  induction l1 as [|[k1 o1] l1 IH]; cbn [vals app]; rewrite !cnt_app; [reflexivity|]. lia.
Qed.

Lemma vals_remove t k o os :
  lookup k os = Some o -> cnt t (vals os) = cnt t (oval o) + cnt t (vals (remove_key k os)).
Proof. intros (l1 & l2 & -> & Hni)%lookup_split. rewrite (remove_split _ _ _ _ Hni). apply vals_mid. Qed.

Lemma vals_update t k o o' os :
  lookup k os = Some o -> cnt t (vals (update k o' os)) = cnt t (oval o') + cnt t (vals (remove_key k os)).
Proof.
  intros (l1 & l2 & -> & Hni)%lookup_split.
  rewrite (update_split _ _ _ _ _ Hni), (remove_split _ _ _ _ Hni). apply vals_mid.
Qed.

Lemma vals_deliver t k o x os :
  lookup k os = Some o -> o_val o = None ->
  cnt t (vals (update k (fin_deliver o x) os)) = cnt t [x] + cnt t (vals os).
Proof.
  intros Ho Hv. rewrite (vals_update t k o _ os Ho), (vals_remove t k o os Ho), (oval_none o Hv). reflexivity.
Qed.

Lemma vals_take t k o o' y os :
  lookup k os = Some o -> o_val o = Some y -> o_val o' = None ->
  cnt t (vals os) = cnt t [y] + cnt t (vals (update k o' os)).
Proof.
  intros Ho Hv Hn.
  rewrite (vals_update t k o o' os Ho), (vals_remove t k o os Ho), (oval_some o y Hv), (oval_none o' Hn). reflexivity.
Qed.

Lemma vals_keep t k o o' os :
  lookup k os = Some o -> o_val o' = o_val o -> cnt t (vals (update k o' os)) = cnt t (vals os).
Proof.
  intros Ho E. rewrite (vals_update t k o o' os Ho), (vals_remove t k o os Ho). unfold oval. rewrite E. reflexivity.
Qed.

Definition offered (a : aconf) (l : label) : list tag :=
  match l with
  | LSend k h x | LSendTimeout k h x | LSendOptTimeout k h (Some x) =>
      if is_side a h SSend && fresh a k then [x] else []
  | LTrySend h x | LTrySendOpt h (Some x) | LTrySendRT h x _ | LTrySendOptRT h (Some x) _ =>
      if is_side a h SSend then [x] else []
  | LMkSend f h x => if is_side a h SSend && fresh a f then [x] else []
  | _ => []
  end.

Definition out_tags (o : out) : list tag := res_received (r_res o) ++ r_drops o ++ r_back o.

Definition conserves (a : aconf) (l : label) : Prop :=
  forall t, cnt t (offered a l) + cnt t (held a) =
            cnt t (out_tags (snd (astep a l))) + cnt t (held (fst (astep a l))).

(* the balance of one step for one tag, with what comes in as a parameter.  In the proofs below the
   two sides are mostly equal by computation once the movers have been applied: cnt t [] is 0, and
   the tags of an explicit `out` and the value of an explicit object compute. *)
Definition balanced (t : tag) (i : list tag) (a : aconf) (r : aconf * out) : Prop :=
  cnt t i + cnt t (held a) = cnt t (out_tags (snd r)) + cnt t (held (fst r)).

(* unfolds `balanced` at an explicit pair, so that fst and snd compute *)
Lemma balanced_pair t i a a1 o :
  cnt t i + cnt t (held a) = cnt t (out_tags o) + cnt t (held a1) -> balanced t i a (a1, o).
Proof. exact (fun H => H). Qed.

Lemma held_forget t a k o :
  lookup k (objs a) = Some o -> cnt t (held a) = cnt t (oval o) + cnt t (held (forget a k)).
Proof.
  intros Ho. unfold held, forget. cbn [ch objs queue set_wait].
  rewrite !cnt_app, (vals_remove t k o _ Ho). lia.
Qed.

Lemma held_put_keep t a k o o' :
  lookup k (objs a) = Some o -> o_val o' = o_val o -> cnt t (held a) = cnt t (held (put a k o')).
Proof.
  intros Ho E. unfold held, put. cbn [ch objs with_objs]. rewrite !cnt_app, (vals_keep t k o o' _ Ho E). reflexivity.
Qed.

(* `held` does not look at the wait list: a registration counts like the `put` or the new object in it *)
Lemma held_arm t a k o o' :
  lookup k (objs a) = Some o -> o_val o' = o_val o ->
  cnt t (held a) = cnt t (held (with_ch (put a k o') (push_wait (ch (put a k o')) k))).
Proof. exact (held_put_keep t a k o o'). Qed.

Lemma held_put_take t a k o o' x :
  lookup k (objs a) = Some o -> o_val o = Some x -> o_val o' = None ->
  cnt t (held a) = cnt t [x] + cnt t (held (put a k o')).
Proof.
  intros Ho Hx Hn. unfold held, put. cbn [ch objs with_objs].
  rewrite !cnt_app, (vals_take t k o o' x _ Ho Hx Hn). lia.
Qed.

Lemma held_new t a k o : cnt t (held (with_objs a ((k, o) :: objs a))) = cnt t (oval o) + cnt t (held a).
Proof. unfold held. cbn [ch objs with_objs vals]. rewrite !cnt_app. lia. Qed.

Lemma held_add t a k o : cnt t (held (add_obj a k o)) = cnt t (oval o) + cnt t (held a).
Proof. exact (held_new t a k o). Qed.

Lemma send_case_cnt a x t :
  Inv a ->
  match cs_send a x with
  | SCErr _ => True
  | SCSent a1 _ => cnt t (held a1) = cnt t [x] + cnt t (held a)
  | SCFull a1 => cnt t (held a1) = cnt t (held a)
  end.
Proof.
  intros [E0|k r0 o N0 F W Ho Hs Hv|c1 N0 [-> _]%no_recv_eq Hl|c1 N0 [-> _]%no_recv_eq Hl]%(cs_send_case a x);
    [exact I| | |reflexivity]; unfold held; cbn [ch objs queue set_wait set_queue set_flag]; rewrite !cnt_app.
  - rewrite (vals_deliver t k o x _ Ho Hv). lia.
  - lia.
Qed.

Lemma recv_case_cnt a t :
  Inv a ->
  match cs_recv a with
  | RCGot v a1 _ => cnt t (held a) = cnt t [v] + cnt t (held a1)
  | RCNone a1 => cnt t (held a1) = cnt t (held a)
  | _ => True
  end.
Proof.
  intros [E0|v q k r0 o y N0 Q F W Ho Hs Hv|v q c1 N0 Q [-> _]%no_send_eq|k r0 o y N0 Q F W Ho Hs Hv
         |c1 N0 Q [-> _]%no_send_eq]%cs_recv_case; [exact I| | | |reflexivity];
    unfold held; cbn [ch objs queue set_wait set_queue set_flag]; rewrite Q, !cnt_app.
  - rewrite (cnt_cons t v q), (vals_take t k o (fin_take o) y _ Ho Hv eq_refl). lia.
  - rewrite (cnt_cons t v q). lia.
  - rewrite (vals_take t k o (fin_take o) y _ Ho Hv eq_refl). lia.
Qed.

Lemma term_all_cnt t wl : forall os, cnt t (vals (fst (term_all wl os))) = cnt t (vals os).
Proof.
  induction wl as [|k r IH]; intros os; [reflexivity|]. cbn [term_all].
  destruct (lookup k os) as [o|] eqn:Ho.
  - rewrite (sig_term_bound k os o Ho). specialize (IH (update k (fin_term o) os)).
    destruct (term_all r _) as [os2 w2]. rewrite <- (vals_keep t k o (fin_term o) os Ho eq_refl). exact IH.
  - rewrite (sig_term_unbound k os Ho). specialize (IH os). destruct (term_all r os) as [os2 w2]. exact IH.
Qed.

Lemma terminate_cnt t a : cnt t (held (fst (terminate_signals a))) = cnt t (held a).
Proof.
  rewrite terminate_signals_fst. unfold held. cbn [ch objs queue set_wait].
  rewrite !cnt_app, term_all_cnt. reflexivity.
Qed.

Lemma terminate_queue a : queue (ch (fst (terminate_signals a))) = queue (ch a).
Proof. rewrite terminate_signals_fst. reflexivity. Qed.

(* the buffer dies: its values are destroyed *)
Lemma balanced_emptied t a a1 r q ws :
  cnt t (held a1) = cnt t (held a) -> queue (ch a1) = q -> res_received r = [] ->
  balanced t [] a (with_ch a1 (set_queue (ch a1) []), mkOut r q ws []).
Proof.
  intros H <- R. unfold balanced, out_tags. cbn [fst snd r_res r_drops r_back].
  rewrite R, <- H, app_nil_r. exact (cnt_app t (queue (ch a1)) (vals (objs a1))).
Qed.

Lemma step_close_cnt a h t : balanced t [] a (step_close a h).
Proof.
  unfold step_close. destruct (handle_side a h); [|reflexivity].
  destruct (_ && _); [reflexivity|].
  pose proof (terminate_cnt t (with_ch a (set_counts (ch a) 0 0))) as H.
  pose proof (terminate_queue (with_ch a (set_counts (ch a) 0 0))) as Q.
  destruct (terminate_signals _) as [a2 ws]. apply balanced_emptied; [exact H|exact Q|reflexivity].
Qed.

Lemma step_drop_handle_cnt a h t : balanced t [] a (step_drop_handle a h).
Proof.
  unfold step_drop_handle. destruct (handle_side a h) as [s|]; [|reflexivity].
  destruct (borrowed a h); [reflexivity|].
  match goal with |- context [let '(a1, ws) := ?X in _] =>
    assert (H : cnt t (held (fst X)) = cnt t (held a)); [|destruct X as [a1 ws]] end.
  { destruct s; destruct (N.ltb 0 _); try destruct (_ && _); rewrite ?terminate_cnt; reflexivity. }
  destruct (remove_key h (handles a)).
  - apply balanced_emptied; [exact H|reflexivity..].
  - apply balanced_pair. rewrite <- H. reflexivity.
Qed.

Lemma step_send_like_cnt a k h x kd t :
  Inv a -> balanced t (if is_side a h SSend && fresh a k then [x] else []) a (step_send_like a k h x kd).
Proof.
  intros HI. unfold step_send_like.
  destruct (is_side a h SSend); [|reflexivity]. destruct (fresh a k); [|reflexivity]. cbn [negb orb andb].
  pose proof (send_case_cnt a x t HI) as H.
  destruct (cs_send a x) as [e|a1 ws|a1]; apply balanced_pair.
  - destruct kd; reflexivity.
  - rewrite H. reflexivity.
  - rewrite held_add, H. reflexivity.
Qed.

Lemma step_try_send_cnt a h x opt t :
  Inv a -> balanced t (if is_side a h SSend then [x] else []) a (step_try_send a h x opt).
Proof.
  intros HI. unfold step_try_send. destruct (is_side a h SSend); [|reflexivity]. cbn [negb].
  pose proof (send_case_cnt a x t HI) as H.
  destruct (cs_send a x) as [e|a1 ws|a1]; destruct opt; apply balanced_pair; rewrite ?H; reflexivity.
Qed.

Lemma step_recv_like_cnt a k h timed early t :
  Inv a -> balanced t [] a (step_recv_like a k h timed early).
Proof.
  intros HI. unfold step_recv_like.
  destruct (is_side a h SRecv); [|reflexivity]. destruct (fresh a k); [|reflexivity]. cbn [negb orb].
  pose proof (recv_case_cnt a t HI) as H.
  destruct (cs_recv a) as [|v a1 ws|a1|]; [reflexivity|exact H| |reflexivity].
  destruct (timed && early); [|destruct (N.eqb _ 0)]; apply balanced_pair; rewrite ?held_add, H; reflexivity.
Qed.

Lemma step_try_recv_cnt a h t : Inv a -> balanced t [] a (step_try_recv a h).
Proof.
  intros HI. unfold step_try_recv. destruct (is_side a h SRecv); [|reflexivity]. cbn [negb].
  pose proof (recv_case_cnt a t HI) as H.
  destruct (cs_recv a) as [|v a1 ws|a1|]; [reflexivity|exact H| |reflexivity].
  destruct (N.eqb _ 0); apply balanced_pair; rewrite H; reflexivity.
Qed.

(* whatever the loop of drain_into returns came out of the listed senders; the buffer is not touched *)
Lemma drain_senders_cnt t n : forall c os ys c2 os2 ws,
  drain_senders n c os = Some (ys, c2, os2, ws) ->
  cnt t (vals os) = cnt t ys + cnt t (vals os2) /\ queue c2 = queue c.
Proof.
  induction n as [|n IH]; intros c os ys c2 os2 ws E; [discriminate|]. cbn [drain_senders] in E.
  destruct (next_send_case c) as [(k & r & _ & _ & En)|(c1 & [-> _]%no_send_eq & En)]; rewrite En in E.
  - unfold sig_take in E. destruct (lookup k os) as [o|] eqn:Ho; [|discriminate].
    destruct (o_val o) as [y|] eqn:Hy; [|discriminate].
    destruct (drain_senders n _ _) as [[[[ys1 c3] os3] ws3]|] eqn:E1; [|discriminate].
    injection E as <- <- <- <-. destruct (IH _ _ _ _ _ _ E1) as [H1 H2]. split; [|exact H2].
    rewrite (vals_take t k o (set_sig (set_val o None) SOk) y os Ho Hy eq_refl), H1, (cnt_cons t y ys1).
    apply Nat.add_assoc.
  - injection E as <- <- <- <-. split; reflexivity.
Qed.

Lemma step_drain_cnt a h t : balanced t [] a (step_drain a h).
Proof.
  unfold step_drain. destruct (is_side a h SRecv); [|reflexivity]. cbn [negb].
  destruct (N.eqb (recv_count (ch a)) 0); [reflexivity|].
  destruct (drain_senders _ _ _) as [[[[ys c2] os2] ws]|] eqn:E; [|reflexivity].
  destruct (drain_senders_cnt t _ _ _ _ _ _ _ E) as [H1 H2].
  unfold balanced, held, out_tags. cbn [fst snd ch objs queue set_queue r_res r_drops r_back res_received] in *.
  rewrite H2, !cnt_app, H1, !cnt_nil. lia.
Qed.

Lemma leave_step_cnt a k r t : leave_step a k r -> balanced t [] a r.
Proof.
  intros [[->|(o & Ho & E1 & _ & E3)] _]; [reflexivity|].
  unfold balanced, out_tags. rewrite E1, E3. exact (held_forget t a k o Ho).
Qed.

Lemma step_mk_cnt a f h kd v t :
  balanced t (match v with Some x => if is_side a h (kind_side kd) && fresh a f then [x] else [] | None => [] end)
           a (step_mk a f h kd v).
Proof.
  unfold step_mk. destruct (is_side a h (kind_side kd)); [|destruct v; reflexivity].
  destruct (fresh a f); [|destruct v; reflexivity].
  apply balanced_pair. rewrite held_new. reflexivity.
Qed.

Lemma step_poll_cnt a f w t : Inv a -> balanced t [] a (step_poll a f w).
Proof.
  intros HI. pose proof (fun x => send_case_cnt a x t HI) as HS.
  pose proof (recv_case_cnt a t HI) as HR.
  destruct (step_poll_case a f w HI); try specialize (HS x); try rewrite E in HS; try rewrite E in HR;
    try reflexivity; apply balanced_pair;
    unfold out_tags; cbn [r_res r_drops r_back]; rewrite app_nil_r, ?Ev; try apply retired_val in R.
  (* the state has changed in nine of the cases; R says that a retired future has no value *)
  - (* pc_refresh *)
    apply (held_put_keep t a f o _ Ho). reflexivity.
  - (* pc_finished: the value the future still has goes out *)
    destruct (o_val o) as [x|] eqn:Hx; [apply (held_put_take t a f o o' x Ho Hx R)|].
    apply (held_put_keep t a f o o' Ho). congruence.
  - (* pc_send_err *)
    apply (held_put_take t a f o o' x Ho Hx R).
  - (* pc_send_sent: x has gone into a1 and is still counted in the future, which gives it up *)
    pose proof (held_put_take t a1 f o o' x Ho1 Hx R) as G.
    rewrite HS in G. apply Nat.add_cancel_l in G. exact G.
  - (* pc_send_full *)
    rewrite <- (held_arm t a1 f o o1 Ho1 (armed_val o o1 R)), HS. reflexivity.
  - (* pc_recv_closed *)
    apply (held_put_keep t a f o o' Ho). congruence.
  - (* pc_recv_got *)
    rewrite <- (held_put_keep t a1 f o o' Ho1) by congruence. exact HR.
  - (* pc_recv_gone *)
    rewrite <- (held_put_keep t a1 f o o' Ho1) by congruence. rewrite HR. reflexivity.
  - (* pc_recv_none *)
    rewrite <- (held_arm t a1 f o o1 Ho1 (armed_val o o1 R)), HR. reflexivity.
Qed.

Theorem astep_conserves a l : Inv a -> conserves a l.
Proof.
  intros HI t. change (balanced t (offered a l) a (astep a l)).
  by_label l; cbn [offered astep]; try (destruct (is_side a h _); reflexivity);
    auto using step_drop_handle_cnt, step_close_cnt, step_send_like_cnt, step_try_send_cnt, step_recv_like_cnt,
      step_try_recv_cnt, step_drain_cnt, step_poll_cnt.
  - unfold step_clone. destruct (handle_side a h); [destruct (handle_side a h')|]; try reflexivity.
    destruct s; destruct (N.ltb 0 _); reflexivity.
  - unfold step_obs. destruct (handle_side a h) as [s|]; [destruct o; destruct s|]; reflexivity.
  - apply (leave_step_cnt a k), step_complete_case, HI.
  - apply (leave_step_cnt a k), step_timeout_case, HI.
  - exact (step_mk_cnt a f h KSendFut (Some x) t).
  - exact (step_mk_cnt a f h KRecvFut None t).
  - exact (step_mk_cnt a f h KStream None t).
  - apply (leave_step_cnt a f), step_drop_fut_case, HI.
  - unfold step_stream_term. destruct (lookup f (objs a)) as [o|]; [destruct (o_kind o)|]; reflexivity.
Qed.

Fixpoint offered_run (a : aconf) (ls : list label) : list tag :=
  match ls with
  | [] => []
  | l :: r => offered a l ++ offered_run (fst (astep a l)) r
  end.

Definition outs_received (os : list out) : list tag := flat_map (fun o => res_received (r_res o)) os.
Definition outs_dropped (os : list out) : list tag := flat_map r_drops os.
Definition outs_back (os : list out) : list tag := flat_map r_back os.

Lemma arun_conserves ls : forall a t, Inv a ->
  let '(a', os) := arun a ls in
  cnt t (offered_run a ls) + cnt t (held a) =
  cnt t (outs_received os ++ outs_dropped os ++ outs_back os ++ held a').
Proof.
  induction ls as [|l ls IH]; intros a t HI; cbn [offered_run arun]; [reflexivity|].
  pose proof (astep_conserves a l HI t) as H1. pose proof (astep_inv a l HI) as HI1.
  destruct (astep a l) as [a1 o]. specialize (IH a1 t HI1). destruct (arun a1 ls) as [a2 os].
  unfold out_tags, outs_received, outs_dropped, outs_back in *. cbn [fst snd flat_map] in *.
  rewrite !cnt_app in *. lia.
Qed.

(* C01 / C05, multiset form: over any execution from a fresh channel, the values
   offered are exactly the values received + destroyed + handed back + still held *)
Theorem ledger_conservation b cap ls :
  let '(a, os) := arun (init b cap) ls in
  Permutation (offered_run (init b cap) ls)
              (outs_received os ++ outs_dropped os ++ outs_back os ++ held a).
Proof.
  pose proof (fun t => arun_conserves ls (init b cap) t (init_inv b cap)) as H.
  destruct (arun (init b cap) ls) as [a os].
  apply (Permutation_count_occ N.eq_dec). intros t.
  (* nothing is held at the start: cnt t (held (init b cap)) is the 0 of plus_n_O *)
  exact (eq_trans (plus_n_O _) (H t)).
Qed.
