(* SigProof.v - every reachable state of the signal protocol is safe, for the orderings
   written in the current source (gen/Gen_Sites.v): the worklist exploration `explore` returns a
   set that contains its start states and is closed under `next` (proved once, for any `next`);
   the finite set it returns for `snext` is computed inside Coq, once, and every fact about all
   reachable states is a `forallb` over that list. *)
From KV Require Import Sig.
From KV.gen Require Import Gen_Sites.

Scheme Equality for stv.
Scheme Equality for holder.
Scheme Equality for flav.
Scheme Equality for ckind.
Scheme Equality for phase.
Scheme Equality for opc.
Scheme Equality for cpc.
Scheme Equality for sigst.

Definition memb (x : sigst) (l : list sigst) : bool := existsb (sigst_beq x) l.

Lemma memb_in x l : memb x l = true -> In x l.
Proof.
  unfold memb. rewrite existsb_exists. intros (y & Hy & E).
  apply internal_sigst_dec_bl in E. subst. exact Hy.
Qed.

Section Closure.
  Variable next : sigst -> list sigst.

  Inductive reach (i : sigst) : sigst -> Prop :=
  | reach_refl : reach i i
  | reach_step s s' : reach i s -> In s' (next s) -> reach i s'.

  Fixpoint explore (fuel : nat) (todo seen : list sigst) : option (list sigst) :=
    match fuel with
    | O => None
    | S n =>
        match todo with
        | [] => Some seen
        | s :: r =>
            if memb s seen then explore n r seen
            else explore n (next s ++ r) (s :: seen)
        end
    end.

  (* the loop invariant: what the result holds beyond `seen` has its successors in the result *)
  Lemma explore_closed fuel : forall todo seen R,
    explore fuel todo seen = Some R ->
    incl todo R /\ incl seen R /\ forall s, In s R -> In s seen \/ incl (next s) R.
  Proof.
    induction fuel as [|n IH]; intros todo seen R E; [discriminate|].
    destruct todo as [|s r]; simpl in E.
    - injection E as <-. split; [intros x []|]. split; [apply incl_refl|]. intros s Hs. left. exact Hs.
    - destruct (memb s seen) eqn:M; apply IH in E as (Ht & Hs & Hc).
      + split; [|split; assumption]. apply incl_cons; [apply Hs, memb_in, M|exact Ht].
      + apply incl_app_inv in Ht as [Hn Hr]. apply incl_cons_inv in Hs as [Hs Hseen].
        split; [apply incl_cons; assumption|]. split; [exact Hseen|].
        (* the state just moved to `seen` is covered because its successors went on the worklist *)
        intros x Hx. destruct (Hc x Hx) as [[<-|H]|H]; [right; exact Hn|left; exact H|right; exact H].
  Qed.

  Theorem explore_reach fuel inits R :
    explore fuel inits [] = Some R -> forall i s, In i inits -> reach i s -> In s R.
  Proof.
    intros E i s Hi Hr. apply explore_closed in E as (Hin & _ & Hc).
    induction Hr as [|s s' _ IH Hn]; [apply Hin; exact Hi|].
    destruct (Hc s IH) as [[]|H]. apply H. exact Hn.
  Qed.
End Closure.

Definition actual_ords : sig_ords := ords_of atomic_sites.

(* the fuel is ample: `explored` below shows that the exploration ends within it *)
Definition reachable_set : list sigst :=
  match explore (snext actual_ords) 200000 sinits [] with Some l => l | None => [] end.

Definition reachable_count : nat := Eval vm_compute in length reachable_set.

(* The one evaluation of the exploration (it did not run out of fuel, and this is what it found).
   Every later fact about `reachable_set` first rewrites with `reachable_set_eq` and evaluates over
   the list: coqchk has no VM and would otherwise redo the exploration, by its slow reduction,
   inside each of them. *)
Definition reachable_list : list sigst := Eval vm_compute in reachable_set.

Lemma explored : explore (snext actual_ords) 200000 sinits [] = Some reachable_list.
Proof. vm_compute. reflexivity. Qed.

Lemma reachable_set_eq : reachable_set = reachable_list.
Proof. unfold reachable_set. rewrite explored. reflexivity. Qed.

Lemma reachable_set_nonempty : reachable_set <> [].
Proof. rewrite reachable_set_eq. discriminate. Qed.

Lemma reachable_all_safe : forallb safe reachable_set = true.
Proof. rewrite reachable_set_eq. vm_compute. reflexivity. Qed.

Lemma reach_in i s : In i sinits -> reach (snext actual_ords) i s -> In s reachable_set.
Proof. rewrite reachable_set_eq. exact (explore_reach _ _ _ _ explored i s). Qed.

(* what is checked on the list holds of every reachable state *)
Lemma reachable_forall (P : sigst -> bool) :
  forallb P reachable_set = true ->
  forall i s, In i sinits -> reach (snext actual_ords) i s -> P s = true.
Proof.
  intros H i s Hi Hr. rewrite forallb_forall in H. apply H. exact (reach_in i s Hi Hr).
Qed.

(* C06 / C07 for the hand-off protocol: in every execution of any length, of a sync (plain or
   timed) or async waiter against its claiming peer, under any interleaving, any number of
   spin / park / sleep iterations, spurious wake-ups and any moment for the deadline:
   no slot / waker / lifetime access happens without its ownership token (no data race, no
   access after the owner's frame or future is gone), no parked owner is left without a
   wake-up once its peer is done, and the owner reports success exactly when the peer
   delivered. *)
Theorem signal_protocol_safe :
  forall i s, In i sinits -> reach (snext actual_ords) i s -> safe s = true.
Proof. exact (reachable_forall safe reachable_all_safe). Qed.
