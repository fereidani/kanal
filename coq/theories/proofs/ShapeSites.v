(* ShapeSites.v - see ShapeBase.v *)
From KV Require Import Mem Expected.
From KV.gen Require Import Gen_Sites.

Lemma atomic_sites_shape_ok :
  list_eqb shape_eqb (map site_shape atomic_sites) (map site_shape expected_atomic_sites) = true.
Proof. vm_compute. reflexivity. Qed.
