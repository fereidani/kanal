(* Frames.v - what each step leaves alone: counts, capacity and handles change only through
   clone / drop / close (C12; Closed.v rests on it).  (`frame`, what a critical section leaves alone in
   the object table and the wait list as well, is in Cases.v.) *)
From KV Require Import Atomic.
From KV.proofs Require Import Inv Cases StepInv.

Definition meta (a : aconf) : N * N * N := (recv_count (ch a), send_count (ch a), capacity (ch a)).

Definition handle_label (l : label) : bool :=
  match l with LClone _ _ | LDropH _ | LClose _ => true | _ => false end.

Lemma meta_put a f o : meta (put a f o) = meta a /\ handles (put a f o) = handles a.
Proof. auto. Qed.

(* `meta` and `handles` compute through put, forget, add_obj and push_wait: a state built from a1 by
   those is `same` as a1 by conversion, which is what `reflexivity` and `exact` use in this file *)
Definition same (a a' : aconf) : Prop := meta a' = meta a /\ handles a' = handles a.

Lemma frame_same a a1 : frame a a1 -> same a a1.
Proof. intros (_ & R & S & C & H). unfold same, meta. rewrite R, S, C. auto. Qed.

Lemma leave_step_same a k r : leave_step a k r -> same a (fst r).
Proof. intros [[->|(o & _ & -> & _)] _]; split; reflexivity. Qed.

Lemma step_poll_same a f w : Inv a -> same a (fst (step_poll a f w)).
Proof.
  intros HI. pose proof (fun x => send_case_frame a x HI) as HS. pose proof (recv_case_frame a HI) as HR.
  (* the result state is a or, after a critical section, a1 (HS, HR), changed by put and push_wait only *)
  destruct (step_poll_case a f w HI); try specialize (HS x); try rewrite E in HS; try rewrite E in HR; simpl;
    first [exact (frame_same _ _ HS)|exact (frame_same _ _ HR)|split; reflexivity].
Qed.

Lemma step_send_like_same a k h x kd : Inv a -> same a (fst (step_send_like a k h x kd)).
Proof.
  intros HI. unfold step_send_like. destruct (_ || _); [split; reflexivity|].
  pose proof (send_case_frame a x HI) as H. destruct (cs_send a x); [split; reflexivity|exact (frame_same _ _ H)..].
Qed.

Lemma step_try_send_same a h x opt : Inv a -> same a (fst (step_try_send a h x opt)).
Proof.
  intros HI. unfold step_try_send. destruct (negb _); [split; reflexivity|].
  pose proof (send_case_frame a x HI) as H. destruct (cs_send a x); [split; reflexivity|exact (frame_same _ _ H)..].
Qed.

Lemma step_recv_like_same a k h timed early : Inv a -> same a (fst (step_recv_like a k h timed early)).
Proof.
  intros HI. unfold step_recv_like. destruct (_ || _); [split; reflexivity|].
  pose proof (recv_case_frame a HI) as H.
  destruct (cs_recv a) as [|v a1 ws|a1|]; try (split; reflexivity); apply frame_same in H.
  - exact H.
  - destruct (timed && early); [exact H|]. destruct (N.eqb (send_count (ch a1)) 0); exact H.
Qed.

Lemma step_try_recv_same a h : Inv a -> same a (fst (step_try_recv a h)).
Proof.
  intros HI. unfold step_try_recv. destruct (negb _); [split; reflexivity|].
  pose proof (recv_case_frame a HI) as H.
  destruct (cs_recv a) as [|v a1 ws|a1|]; try (split; reflexivity); apply frame_same in H.
  - exact H.
  - destruct (N.eqb (send_count (ch a1)) 0); exact H.
Qed.

Lemma step_drain_same a h : Inv a -> same a (fst (step_drain a h)).
Proof.
  intros HI. unfold step_drain. destruct (step_drain_runs a HI) as (ys & os2 & ws & -> & _).
  destruct (negb _); [split; reflexivity|]. destruct (N.eqb _ 0); [split; reflexivity|].
  simpl. destruct (recv_blocking (ch a)); split; reflexivity.
Qed.

Lemma step_mk_same a f h kd v : same a (fst (step_mk a f h kd v)).
Proof. unfold step_mk. destruct (_ || _); split; reflexivity. Qed.

Theorem astep_meta a l :
  Inv a -> handle_label l = false ->
  meta (fst (astep a l)) = meta a /\ handles (fst (astep a l)) = handles a.
Proof.
  intros HI Hl. change (same a (fst (astep a l))).
  by_label l; try discriminate Hl; simpl; try (destruct (is_side a h _); split; reflexivity);
    auto using step_send_like_same, step_try_send_same, step_recv_like_same, step_try_recv_same,
      step_drain_same, step_mk_same, step_poll_same.
  - unfold step_obs. destruct (handle_side a h); split; reflexivity.
  - apply (leave_step_same a k), step_complete_case, HI.
  - apply (leave_step_same a k), step_timeout_case, HI.
  - apply (leave_step_same a f), step_drop_fut_case, HI.
  - unfold step_stream_term. destruct (lookup f (objs a)) as [o|]; [destruct (o_kind o)|]; split; reflexivity.
Qed.
