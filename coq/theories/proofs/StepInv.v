(* StepInv.v - every step of the Atomic model preserves the invariant.  On the way: what the invariant says
   of a critical section's result beyond `frame` (send_case_inv, recv_case_inv), and the loop of drain_into
   (drain_senders_invO; step_drain_runs: it does not run out of fuel). *)
From KV Require Import Atomic.
From KV.proofs Require Import Assoc Inv Cases.

Lemma inv_same_state a a' : Inv a -> a' = a -> Inv a'.
Proof. intros H ->. exact H. Qed.

Lemma okb_done f o :
  o_fst o = FDone -> kind_async (o_kind o) = true -> o_val o = None -> obj_okb false f o = true.
Proof. intros E A V. unfold obj_okb, has_val. rewrite E, A, V. reflexivity. Qed.

Lemma okb_waiting f o :
  o_fst o = FWaiting -> o_sig o = SLocked -> f = negb (is_send o) -> has_val o = is_send o ->
  obj_okb true f o = true.
Proof. intros E S -> V. unfold obj_okb. rewrite E, S, V, !eqb_reflx. reflexivity. Qed.

(* a sender is listed only while the buffer is full, a receiver only while it is empty *)
Lemma room_nobody a :
  Inv a -> recv_blocking (ch a) = false \/ wait_list (ch a) = [] ->
  (len (queue (ch a)) < capacity (ch a))%N -> wait_list (ch a) = [].
Proof.
  intros (_ & [_ _ Sf] & _) [F|W] Hl; [|exact W].
  destruct (wait_list (ch a)); [reflexivity|]. specialize (Sf F ltac:(discriminate)). lia.
Qed.

Lemma send_case_inv a x :
  Inv a ->
  match cs_send a x with
  | SCErr _ => True
  | SCSent a1 _ => Inv a1
  | SCFull a1 => Inv a1 /\ a1 = with_ch a (set_flag (ch a) false) /\
                 (capacity (ch a) <= len (queue (ch a)))%N /\ recv_count (ch a) <> 0%N
  end.
Proof.
  intros HI.
  destruct (cs_send_case a x HI) as [E0|k r0 o N0 F W Ho Hs Hv|c1 N0 [-> Hn]%no_recv_eq Hl|c1 N0 [-> Hn]%no_recv_eq Hl]; auto.
  - exact (inv_serve a k r0 o (Some x) (queue (ch a)) HI W Ho Hs eq_refl).
  - simpl in Hl. apply (inv_idle a (queue (ch a) ++ [x]) false HI (room_nobody a HI Hn Hl)).
    rewrite len_app. change (len [x]) with 1%N. lia.
  - split; [apply (inv_flag a false HI Hn)|auto].
Qed.

Lemma value_nobody a v q :
  Inv a -> queue (ch a) = v :: q -> recv_blocking (ch a) = true \/ wait_list (ch a) = [] ->
  wait_list (ch a) = [].
Proof.
  intros (_ & [_ Re _] & _) Q [F|W]; [|exact W].
  destruct (wait_list (ch a)); [reflexivity|]. specialize (Re F ltac:(discriminate)). congruence.
Qed.

Lemma recv_case_inv a :
  Inv a ->
  match cs_recv a with
  | RCClosed | RCCorrupt => True
  | RCGot _ a1 _ => Inv a1
  | RCNone a1 => Inv a1 /\ a1 = with_ch a (set_flag (ch a) true) /\ queue (ch a) = []
  end.
Proof.
  intros HI. destruct (cs_recv_case a HI) as [E0|v q k r0 o y N0 Q F W Ho Hs Hv|v q c1 N0 Q [-> Hn]%no_send_eq
                                         |k r0 o y N0 Q F W Ho Hs Hv|c1 N0 Q [-> Hn]%no_send_eq]; auto.
  - apply (inv_serve a k r0 o None _ HI W Ho Hs). rewrite Q, len_app, !len_cons. reflexivity.
  - apply (inv_idle a q true HI (value_nobody a v q HI Q Hn)).
    pose proof (i_cap _ (proj1 (proj2 HI))) as Cp. rewrite Q, len_cons in Cp. lia.
  - exact (inv_serve a k r0 o None (queue (ch a)) HI W Ho Hs eq_refl).
  - split; [apply (inv_flag a true HI Hn)|auto].
Qed.

Lemma term_all_invO f wl os hs :
  InvO f wl os hs -> InvO f [] (fst (term_all wl os)) hs.
Proof.
  revert os. induction wl as [|k r IH]; intros os HO; simpl; [exact HO|].
  destruct (invO_head _ _ _ _ _ HO) as (o & Ho & Hf & _ & Hs & Hv & _). rewrite <- Hs in Hv.
  rewrite (sig_term_bound k os o Ho). specialize (IH (update k (fin_term o) os)).
  destruct (term_all r _) as [os2 w2]. apply IH.
  apply (invO_pop _ _ _ _ _ o _ HO Ho); [reflexivity..|exact (okb_fin_term f o Hf Hv)].
Qed.

(* the third field of InvC, for a channel and a handle table that are not yet those of a configuration *)
Definition counts_ok (c : chan) (hs : list (id * side)) : Prop :=
  (send_count c = count_side SSend hs /\ recv_count c = count_side SRecv hs) \/
  (send_count c = 0%N /\ recv_count c = 0%N).

(* the counts and the handle table change; then the waiters are terminated, or else nobody may be listed where
   a side is gone *)
Lemma inv_counts a r s hs (term : bool) :
  Inv a -> InvO (recv_blocking (ch a)) (wait_list (ch a)) (objs a) hs -> NoDup (keys hs) ->
  counts_ok (set_counts (ch a) r s) hs ->
  (term = false -> s = 0%N \/ r = 0%N -> wait_list (ch a) = []) ->
  let a0 := mkConf (set_counts (ch a) r s) (objs a) hs in
  Inv (fst (if term then terminate_signals a0 else (a0, []))).
Proof.
  intros (_ & [Cp Re Sf] & _) HO Hk Ct Hw a0. destruct term.
  - rewrite terminate_signals_fst. split; [exact (term_all_invO _ _ _ _ HO)|split; constructor; auto].
  - split; [exact HO|split; constructor; auto].
Qed.

(* only the handle table changes *)
Lemma inv_handle_table a hs :
  Inv a -> InvO (recv_blocking (ch a)) (wait_list (ch a)) (objs a) hs -> NoDup (keys hs) ->
  counts_ok (ch a) hs -> Inv (mkConf (ch a) (objs a) hs).
Proof. intros (_ & HQ & [Cl _ _]) HO Hk Ct. split; [exact HO|split; [exact HQ|constructor; auto]]. Qed.

Lemma step_clone_inv a h h' : Inv a -> Inv (fst (step_clone a h h')).
Proof.
  intros HI. unfold step_clone, handle_side.
  destruct (lookup h (handles a)) as [s|] eqn:Hh; [|exact HI].
  destruct (lookup h' (handles a)) eqn:Hh'; [exact HI|].
  pose proof HI as (HO & _ & [Cl Hk Ct]). apply count_side_pos in Hh.
  assert (HO' := invO_add_handle _ _ _ _ h' s HO Hh').
  assert (Hk' : NoDup (keys ((h', s) :: handles a))) by (constructor; [apply lookup_none, Hh'|exact Hk]).
  (* the count of the side goes up, unless it is 0 (the channel is closed): then it stays *)
  destruct s; [destruct (N.ltb_spec 0 (send_count (ch a)))|destruct (N.ltb_spec 0 (recv_count (ch a)))].
  1,3: apply (inv_counts a _ _ _ false HI HO' Hk');
       [unfold counts_ok; simpl; lia|intros _ Hz; apply Cl; simpl in Hz; lia].
  all: apply (inv_handle_table a _ HI HO' Hk'); unfold counts_ok; simpl; lia.
Qed.

Lemma step_close_inv a h : Inv a -> Inv (fst (step_close a h)).
Proof.
  intros HI. unfold step_close. destruct (handle_side a h); [|exact HI].
  destruct (_ && _); [exact HI|].
  pose proof HI as (HO & _ & [_ Hk _]).
  pose proof (inv_counts a 0 0 (handles a) true HI HO Hk (or_intror (conj eq_refl eq_refl)) ltac:(discriminate)) as H.
  cbv zeta iota in H.
  pose proof (f_equal (fun a2 => wait_list (ch a2)) (terminate_signals_fst (with_ch a (set_counts (ch a) 0 0)))) as W.
  destruct (terminate_signals _) as [a2 ws].
  apply (inv_idle a2 [] (recv_blocking (ch a2)) H W). rewrite len_nil. lia.
Qed.

Lemma not_borrowed a h :
  borrowed a h = false -> forall k o, lookup k (objs a) = Some o -> o_h o <> h.
Proof.
  unfold borrowed. intros Hb k o Ho Eh. apply lookup_binding in Ho.
  enough (existsb (fun p => N.eqb (o_h (snd p)) h) (objs a) = true) by congruence.
  apply existsb_exists. exists (k, o). split; [exact Ho|apply N.eqb_eq, Eh].
Qed.

Lemma count_remove s h s' hs :
  lookup h hs = Some s' ->
  count_side s hs = ((if side_eqb s s' then 1 else 0) + count_side s (remove_key h hs))%N.
Proof.
  induction hs as [|[h2 s2] hs IH]; [discriminate|].
  rewrite lookup_cons, remove_key_cons.
  destruct (N.eqb_spec h h2) as [->|Hn].
  - intros [= ->]. reflexivity.
  - intros E. simpl. rewrite (IH E). lia.
Qed.

Lemma step_drop_handle_inv a h : Inv a -> Inv (fst (step_drop_handle a h)).
Proof.
  intros HI. unfold step_drop_handle, handle_side.
  destruct (lookup h (handles a)) as [s|] eqn:Hh; [|exact HI].
  destruct (borrowed a h) eqn:Hb; [exact HI|].
  pose proof HI as (HO & _ & [Cl Hk Ct]).
  pose proof (count_remove SSend h s _ Hh) as CS. pose proof (count_remove SRecv h s _ Hh) as CR.
  assert (HO' := invO_remove_handle _ _ _ _ h HO (not_borrowed a h Hb)).
  assert (Hk' := nodup_remove h _ Hk).
  match goal with |- Inv (fst (let '(a1, ws) := ?X in _)) =>
    assert (H1 : Inv (fst X) /\ handles (fst X) = remove_key h (handles a)); [|destruct X as [a1 ws]] end.
  { (* the counts follow the handle table; a side that has just gone, the other being there, has its
       waiters terminated (Ht: they are not; then nobody is listed, by Cl) *)
    destruct s; cbn [side_eqb] in CS, CR; cbn [send_count recv_count set_counts].
    - destruct (N.ltb_spec 0 (send_count (ch a))); [split|].
      + apply (inv_counts a _ _ _ _ HI HO' Hk'); [unfold counts_ok; simpl; lia|].
        intros Ht Hz. apply Cl. destruct (N.eqb_spec (send_count (ch a) - 1) 0), (N.eqb_spec (recv_count (ch a)) 0);
          try discriminate Ht; lia.
      + destruct (_ && _); [rewrite terminate_signals_fst|]; reflexivity.
      + split; [|reflexivity]. apply (inv_handle_table a _ HI HO' Hk'). unfold counts_ok. lia.
    - destruct (N.ltb_spec 0 (recv_count (ch a))); [split|].
      + apply (inv_counts a _ _ _ _ HI HO' Hk'); [unfold counts_ok; simpl; lia|].
        intros Ht Hz. apply Cl. destruct (N.eqb_spec (recv_count (ch a) - 1) 0), (N.eqb_spec (send_count (ch a)) 0);
          try discriminate Ht; lia.
      + destruct (_ && _); [rewrite terminate_signals_fst|]; reflexivity.
      + split; [|reflexivity]. apply (inv_handle_table a _ HI HO' Hk'). unfold counts_ok. lia. }
  destruct H1 as [H1 E]. simpl in *. destruct (remove_key h (handles a)); [|exact H1].
  (* the last handle of all: both counts are 0, nobody is listed, the buffer dies *)
  pose proof H1 as (_ & _ & [Cl1 _ Ct1]). rewrite E in Ct1. simpl in Ct1.
  apply (inv_idle a1 [] (recv_blocking (ch a1)) H1); [apply Cl1; lia|rewrite len_nil; lia].
Qed.

Lemma step_send_like_inv a k h x kd :
  kind_side kd = SSend -> Inv a -> Inv (fst (step_send_like a k h x kd)).
Proof.
  intros Hkd HI. unfold step_send_like.
  destruct (is_side a h SSend) eqn:Hs; [|exact HI]. destruct (fresh a k) eqn:Hk; [|exact HI].
  pose proof (send_case_inv a x HI) as H.
  destruct (cs_send a x) as [e|a1 ws|a1]; [exact HI|exact H|].
  (* the caller joins the senders listed behind a full buffer *)
  destruct H as (HI1 & -> & Hfull & Hr). apply is_side_lookup in Hs. apply fresh_lookup in Hk.
  apply inv_register; auto.
  - apply (invO_add _ _ _ _ _ _ _ (proj1 HI1) Hk (or_intror eq_refl)); simpl; [|rewrite Hkd; exact Hs].
    rewrite mem_snoc_eq. apply okb_waiting; unfold is_send, has_val; simpl; rewrite ?Hkd; reflexivity.
  - apply (live_count a h SSend HI Hs Hr).
Qed.

Lemma step_try_send_inv a h x opt : Inv a -> Inv (fst (step_try_send a h x opt)).
Proof.
  intros HI. unfold step_try_send. destruct (is_side a h SSend); [|exact HI].
  pose proof (send_case_inv a x HI) as H.
  destruct (cs_send a x) as [e|a1 ws|a1]; [exact HI|exact H|exact (proj1 H)].
Qed.

Lemma step_recv_like_inv a k h timed early : Inv a -> Inv (fst (step_recv_like a k h timed early)).
Proof.
  intros HI. unfold step_recv_like.
  destruct (is_side a h SRecv) eqn:Hs; [|exact HI]. destruct (fresh a k) eqn:Hk; [|exact HI]. simpl.
  pose proof (recv_case_inv a HI) as H.
  destruct (cs_recv a) as [|v a1 ws|a1|]; [exact HI|exact H| |exact HI].
  destruct H as (HI1 & -> & Hq). destruct (timed && early); [exact HI1|]. cbn [ch with_ch set_flag send_count].
  destruct (N.eqb_spec (send_count (ch a)) 0) as [|Hc]; [exact HI1|].
  (* the caller joins the receivers listed at an empty buffer *)
  apply is_side_lookup in Hs. apply fresh_lookup in Hk.
  apply inv_register; auto.
  - apply (invO_add _ _ _ _ _ _ _ (proj1 HI1) Hk (or_intror eq_refl)); simpl; [|destruct timed; exact Hs].
    rewrite mem_snoc_eq. apply okb_waiting; destruct timed; reflexivity.
  - apply (live_count a h SRecv HI Hs Hc).
Qed.

Lemma step_try_recv_inv a h : Inv a -> Inv (fst (step_try_recv a h)).
Proof.
  intros HI. unfold step_try_recv. destruct (is_side a h SRecv); [|exact HI].
  pose proof (recv_case_inv a HI) as H.
  destruct (cs_recv a) as [|v a1 ws|a1|]; [exact HI|exact H| |exact HI].
  destruct (N.eqb _ 0); exact (proj1 H).
Qed.

(* the loop pops every listed sender and ends with the flag saying "receivers"; only the list and the
   flag of the channel change *)
Lemma drain_senders_invO n c os hs :
  InvO (recv_blocking c) (wait_list c) os hs -> (length (wait_list c) < n)%nat ->
  exists ys os2 ws,
    drain_senders n c os =
    Some (ys, set_flag (if recv_blocking c then c else set_wait c []) true, os2, ws) /\
    InvO true (if recv_blocking c then wait_list c else []) os2 hs.
Proof.
  revert c os. induction n as [|n IH]; intros c os HO Hn; [lia|]. simpl.
  destruct (next_send_case c) as [(k & r & F & W & ->)|(c1 & [-> Hns]%no_send_eq & ->)].
  - (* a sender at the head gives its value (take_head); the rest of the list by IH *)
    rewrite W in HO, Hn. rewrite F in *.
    destruct (take_head _ _ _ _ HO) as (o & y & _ & _ & _ & _ & -> & HO1).
    destruct (IH (set_wait c r) (update k (fin_take o) os)) as (ys & os2 & ws & E & HO2);
      simpl; rewrite ?F; [exact HO1|simpl in Hn; lia|].
    rewrite E. simpl in *. rewrite F in *. exists (y :: ys), os2, (wake_of o ++ ws). auto.
  - exists [], os, []. destruct Hns as [F|W].
    + (* receivers are listed: nothing changes *)
      rewrite F in *. auto.
    + (* nobody is listed, so the flag may change (invO_flag) *)
      destruct c as [q f w cap rc sc]. simpl in *. subst w.
      destruct f; [auto|split; [reflexivity|exact (invO_flag _ _ _ _ HO)]].
Qed.

(* the loop as step_drain calls it *)
Lemma step_drain_runs a :
  Inv a ->
  exists ys os2 ws,
    drain_senders (S (length (wait_list (ch a)))) (set_queue (ch a) []) (objs a) =
    Some (ys, set_flag (if recv_blocking (ch a) then set_queue (ch a) [] else set_wait (set_queue (ch a) []) []) true,
          os2, ws) /\
    InvO true (if recv_blocking (ch a) then wait_list (ch a) else []) os2 (handles a).
Proof. intros (HO & _). exact (drain_senders_invO _ (set_queue (ch a) []) _ _ HO (le_n _)). Qed.

Local Arguments drain_senders : simpl never.

Lemma step_drain_inv a h : Inv a -> Inv (fst (step_drain a h)).
Proof.
  intros HI. unfold step_drain. destruct (is_side a h SRecv); [|exact HI]. simpl.
  destruct (N.eqb (recv_count (ch a)) 0); [exact HI|].
  destruct (step_drain_runs a HI) as (ys & os2 & ws & -> & HO2).
  destruct HI as (HO & [Cp Re Sf] & [Cl Hk Ct]).
  (* the buffer is empty and the flag says "receivers": InvQ asks nothing more; the list is as it was or empty, and
     the counts are as they were: InvC *)
  destruct (recv_blocking (ch a)); (split; [exact HO2|split; constructor; simpl; auto; try discriminate]);
    rewrite len_nil; lia.
Qed.

Lemma leave_step_inv a k r : Inv a -> leave_step a k r -> Inv (fst r).
Proof. intros HI [[->|(o & _ & -> & _)] _]; [exact HI|apply inv_forget, HI]. Qed.

Lemma step_mk_inv a f h kd v :
  kind_async kd = true ->
  (match v with Some _ => true | None => false end) = (match kind_side kd with SSend => true | SRecv => false end) ->
  Inv a -> Inv (fst (step_mk a f h kd v)).
Proof.
  intros Hka Hv HI. unfold step_mk.
  destruct (is_side a h (kind_side kd)) eqn:Hs; [|exact HI]. destruct (fresh a f) eqn:Hf; [|exact HI].
  apply inv_new; [exact HI|apply fresh_lookup, Hf| |apply is_side_lookup, Hs].
  unfold obj_okb, has_val. simpl. rewrite Hka, Hv. apply eqb_reflx.
Qed.

Lemma inv_retire a f o o' :
  Inv a -> lookup f (objs a) = Some o -> ~ In f (wait_list (ch a)) -> kind_async (o_kind o) = true ->
  retired o o' -> Inv (put a f o').
Proof.
  intros HI Ho N%mem_false A (Hk & Hh & Hf & Hv). apply (inv_put a f o o' HI Ho Hk Hh).
  rewrite N. apply okb_done; congruence.
Qed.

(* a future that has its value iff it is a sender joins the list behind a critical section that found no
   counterpart *)
Lemma inv_arm a f o o' :
  Inv a -> lookup f (objs a) = Some o -> ~ In f (wait_list (ch a)) -> armed o o' ->
  has_val o = is_send o -> recv_blocking (ch a) = negb (is_send o) ->
  (if recv_blocking (ch a) then queue (ch a) = [] else (capacity (ch a) <= len (queue (ch a)))%N) ->
  (if is_send o then recv_count (ch a) else send_count (ch a)) <> 0%N ->
  Inv (with_ch (put a f o') (push_wait (ch (put a f o')) f)).
Proof.
  intros HI Ho N (Hk & Hh & Hf & Hs & Hv) Hhv Hfl Hq Hc. pose proof HI as (HO & _).
  (* neither count is 0: that of the other side by Hc, the future's own because the handle it borrows is live *)
  pose proof (live_count a _ _ HI (i_borrow _ _ _ _ HO f o Ho)) as Hl.
  unfold is_send, has_val in *. rewrite <- Hk, <- Hv in *.
  apply (inv_register a f (update f o' (objs a)) HI); [|exact Hq|destruct (kind_side (o_kind o')); auto..].
  apply (invO_update _ _ _ _ _ _ o o' HO Ho Hk Hh).
  - apply nodup_snoc; [apply (i_wl _ _ _ _ HO)|exact N].
  - intros k' Hk'. apply mem_snoc_neq, Hk'.
  - rewrite mem_snoc_eq. apply okb_waiting; auto.
Qed.

Lemma fresh_recv_kind o : fresh_recv o -> kind_async (o_kind o) = true /\ is_send o = false.
Proof. unfold is_send. intros [[-> _]|[-> _]]; auto. Qed.

Lemma step_poll_inv a f w : Inv a -> Inv (fst (step_poll a f w)).
Proof.
  intros HI. pose proof (fun x => send_case_inv a x HI) as HS. pose proof (recv_case_inv a HI) as HR.
  destruct (step_poll_case a f w HI); try specialize (HS x); try rewrite E in HS; try rewrite E in HR; simpl; try exact HI.
  (* the state has changed in nine of the cases; HS, HR: the state a1 that the critical section left *)
  - (* pc_refresh *)
    apply (inv_put a f o _ HI Ho); auto. apply (i_obj _ _ _ _ (proj1 HI) f o Ho).
  - (* pc_finished *)
    apply (inv_retire a f o o' HI Ho N A R).
  - (* pc_send_err *)
    apply (inv_retire a f o o' HI Ho N); [rewrite K; reflexivity|exact R].
  - (* pc_send_sent *)
    apply (inv_retire a1 f o o' HS Ho1 N1); [rewrite K; reflexivity|exact R].
  - (* pc_send_full *)
    destruct HS as (HI1 & -> & Hfull & Hr).
    apply (inv_arm _ f o o1 HI1 Ho1 N1 R); unfold is_send, has_val; rewrite ?K, ?Hx; auto.
  - (* pc_recv_closed *)
    apply (inv_retire a f o o' HI Ho N (proj1 (fresh_recv_kind o Hf)) R).
  - (* pc_recv_got *)
    apply (inv_retire a1 f o o' HR Ho1 N1 (proj1 (fresh_recv_kind o Hf)) R).
  - (* pc_recv_gone *)
    apply (inv_retire a1 f o o' (proj1 HR) Ho1 N1 (proj1 (fresh_recv_kind o Hf)) R).
  - (* pc_recv_none *)
    destruct HR as (HI1 & -> & Hq). destruct (fresh_recv_kind o Hf) as [_ Hs].
    apply (inv_arm _ f o o1 HI1 Ho1 N1 R); unfold has_val; rewrite ?Hs, ?V; auto.
Qed.

Theorem astep_inv a l : Inv a -> Inv (fst (astep a l)).
Proof.
  intros HI. by_label l; simpl; try (destruct (is_side a h _); exact HI);
    auto using step_clone_inv, step_drop_handle_inv, step_close_inv, step_send_like_inv, step_try_send_inv,
      step_recv_like_inv, step_try_recv_inv, step_drain_inv, step_mk_inv, step_poll_inv.
  - unfold step_obs. destruct (handle_side a h); exact HI.
  - apply (leave_step_inv a k _ HI), step_complete_case, HI.
  - apply (leave_step_inv a k _ HI), step_timeout_case, HI.
  - apply (leave_step_inv a f _ HI), step_drop_fut_case, HI.
  - unfold step_stream_term. destruct (lookup f (objs a)) as [o|]; [destruct (o_kind o)|]; exact HI.
Qed.

Lemma init_inv b cap : Inv (init b cap).
Proof.
  split; [|split]; constructor; simpl; try discriminate; try tauto.
  - constructor.
  - constructor.
  - rewrite len_nil. lia.
  - repeat constructor; simpl; intuition discriminate.
Qed.

Theorem arun_inv ls : forall a, Inv a -> Inv (fst (arun a ls)).
Proof.
  induction ls as [|l ls IH]; intros a HI; simpl; [exact HI|].
  pose proof (astep_inv a l HI) as H1.
  destruct (astep a l) as [a1 o]. specialize (IH a1 H1).
  destruct (arun a1 ls) as [a2 os]. exact IH.
Qed.

Corollary reachable_inv b cap ls : Inv (fst (arun (init b cap) ls)).
Proof. apply arun_inv. apply init_inv. Qed.
