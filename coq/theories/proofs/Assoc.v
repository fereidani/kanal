(* Assoc.v - lemmas about the association lists of Base.v (lookup, update, remove_key, keys) and about its
   list helpers mem, remove_first and len *)
From KV Require Import Base.
(* a bare `simpl` turns these into their binary-positive code; they are reasoned about by lia and the _spec lemmas *)
Arguments N.add : simpl never.
Arguments N.sub : simpl never.
Arguments N.eqb : simpl never.
Arguments N.ltb : simpl never.
Arguments N.leb : simpl never.

Definition keys {A} (l : list (N * A)) : list N := map fst l.

Section Assoc.
  Context {A : Type}.
  Implicit Types (l : list (N * A)) (k : N) (v : A).

  Lemma lookup_cons k k' v l :
    lookup k ((k', v) :: l) = if N.eqb k k' then Some v else lookup k l.
  Proof. reflexivity. Qed.

  Lemma lookup_in k v l : lookup k l = Some v -> In k (keys l).
  Proof.
    induction l as [|[k' v'] l IH]; simpl; [discriminate|].
    destruct (N.eqb_spec k k') as [->|Hn]; intros H; auto.
  Qed.

  Lemma remove_key_cons k k' v l :
    remove_key k ((k', v) :: l) = if N.eqb k k' then l else (k', v) :: remove_key k l.
  Proof. reflexivity. Qed.

  Lemma lookup_binding k v l : lookup k l = Some v -> In (k, v) l.
  Proof.
    induction l as [|[k' v'] l IH]; simpl; [discriminate|].
    destruct (N.eqb_spec k k') as [->|Hn]; [intros [= ->]|]; auto.
  Qed.

  Lemma lookup_none k l : lookup k l = None <-> ~ In k (keys l).
  Proof.
    induction l as [|[k' v'] l IH]; simpl; [tauto|].
    destruct (N.eqb_spec k k') as [->|Hn].
    - split; [discriminate|]. intros H; exfalso; apply H; auto.
    - split; intros H; [intros [E|E]; [congruence|tauto]|tauto].
  Qed.

  Lemma lookup_some_or_none k l : (exists v, lookup k l = Some v) \/ lookup k l = None.
  Proof. destruct (lookup k l); eauto. Qed.

  Lemma lookup_split k v l :
    lookup k l = Some v ->
    exists l1 l2, l = l1 ++ (k, v) :: l2 /\ ~ In k (keys l1).
  Proof.
    induction l as [|[k' v'] l IH]; simpl; [discriminate|].
    destruct (N.eqb_spec k k') as [->|Hn]; intros H.
    - injection H as ->. exists [], l. auto.
    - destruct (IH H) as (l1 & l2 & -> & Hni).
      exists ((k', v') :: l1), l2. split; [reflexivity|].
      simpl. intros [E|E]; [congruence|tauto].
  Qed.

  Lemma lookup_app_notin k l1 l2 : ~ In k (keys l1) -> lookup k (l1 ++ l2) = lookup k l2.
  Proof.
    induction l1 as [|[k' v'] l1 IH]; simpl; auto.
    intros H. destruct (N.eqb_spec k k') as [->|Hn]; [tauto|]. apply IH; tauto.
  Qed.

  Lemma update_split k v v' l1 l2 :
    ~ In k (keys l1) -> update k v' (l1 ++ (k, v) :: l2) = l1 ++ (k, v') :: l2.
  Proof.
    induction l1 as [|[k' w] l1 IH]; simpl.
    - rewrite N.eqb_refl. reflexivity.
    - intros H. destruct (N.eqb_spec k k') as [->|Hn]; [tauto|]. rewrite IH; tauto.
  Qed.

  Lemma remove_split k v l1 l2 :
    ~ In k (keys l1) -> remove_key k (l1 ++ (k, v) :: l2) = l1 ++ l2.
  Proof.
    induction l1 as [|[k' w] l1 IH]; simpl.
    - rewrite N.eqb_refl. reflexivity.
    - intros H. destruct (N.eqb_spec k k') as [->|Hn]; [tauto|]. rewrite IH; tauto.
  Qed.

  Lemma keys_update k v l : keys (update k v l) = keys l.
  Proof.
    induction l as [|[k' w] l IH]; simpl; auto.
    destruct (N.eqb k k'); simpl; congruence.
  Qed.

  Lemma update_update k v v' l : update k v (update k v' l) = update k v l.
  Proof.
    induction l as [|[k2 w] l IH]; simpl; [reflexivity|].
    destruct (N.eqb_spec k k2) as [->|Hn]; simpl; [rewrite N.eqb_refl; reflexivity|].
    destruct (N.eqb_spec k k2); [contradiction|]. rewrite IH. reflexivity.
  Qed.

  Lemma lookup_update_eq k v l : In k (keys l) -> lookup k (update k v l) = Some v.
  Proof.
    induction l as [|[k' w] l IH]; simpl; [tauto|].
    destruct (N.eqb_spec k k') as [->|Hn]; simpl.
    - rewrite N.eqb_refl. reflexivity.
    - intros [E|E]; [congruence|]. destruct (N.eqb_spec k k'); [congruence|]. auto.
  Qed.

  Lemma lookup_update_neq k k' v l : k <> k' -> lookup k (update k' v l) = lookup k l.
  Proof.
    intros Hn. induction l as [|[k2 w] l IH]; simpl; auto.
    destruct (N.eqb_spec k' k2) as [->|Hn2]; simpl.
    - destruct (N.eqb_spec k k2); [congruence|reflexivity].
    - destruct (N.eqb k k2); auto.
  Qed.

  Lemma lookup_update k k' v l :
    lookup k (update k' v l) =
    if N.eqb k k' then (match lookup k l with Some _ => Some v | None => None end) else lookup k l.
  Proof.
    destruct (N.eqb_spec k k') as [->|Hn].
    - destruct (lookup k' l) eqn:E.
      + apply lookup_update_eq. eapply lookup_in; eauto.
      + apply lookup_none. rewrite keys_update. apply lookup_none. exact E.
    - apply lookup_update_neq; auto.
  Qed.

  Lemma lookup_remove_neq k k' l : k <> k' -> lookup k (remove_key k' l) = lookup k l.
  Proof.
    intros Hn. induction l as [|[k2 w] l IH]; simpl; auto.
    destruct (N.eqb_spec k' k2) as [->|Hn2]; simpl.
    - destruct (N.eqb_spec k k2); [congruence|reflexivity].
    - destruct (N.eqb k k2); auto.
  Qed.

  Lemma lookup_remove_eq k l : NoDup (keys l) -> lookup k (remove_key k l) = None.
  Proof.
    induction l as [|[k2 w] l IH]; simpl; auto.
    intros Hd. inversion Hd as [|? ? Hni Hd']; subst.
    destruct (N.eqb_spec k k2) as [->|Hn]; simpl.
    - apply lookup_none. exact Hni.
    - destruct (N.eqb_spec k k2); [congruence|]. auto.
  Qed.

  Lemma keys_remove_incl k l x : In x (keys (remove_key k l)) -> In x (keys l).
  Proof.
    induction l as [|[k2 w] l IH]; simpl; auto.
    destruct (N.eqb k k2); simpl; tauto.
  Qed.

  Lemma nodup_remove k l : NoDup (keys l) -> NoDup (keys (remove_key k l)).
  Proof.
    induction l as [|[k2 w] l IH]; simpl; auto.
    intros Hd. inversion Hd as [|? ? Hni Hd']; subst.
    destruct (N.eqb k k2); simpl; auto.
    constructor; auto. intros H. apply Hni. eapply keys_remove_incl; eauto.
  Qed.

End Assoc.

Global Arguments lookup {A} k l : simpl never.
Global Arguments update {A} k v l : simpl never.
Global Arguments remove_key {A} k l : simpl never.

Lemma mem_in k l : mem k l = true <-> In k l.
Proof.
  unfold mem. rewrite existsb_exists. split.
  - intros (x & Hx & E). apply N.eqb_eq in E. subst; auto.
  - intros H. exists k. split; auto. apply N.eqb_refl.
Qed.

Lemma mem_false k l : mem k l = false <-> ~ In k l.
Proof. rewrite <- mem_in. destruct (mem k l); split; congruence. Qed.

Lemma mem_app k l1 l2 : mem k (l1 ++ l2) = mem k l1 || mem k l2.
Proof. unfold mem. apply existsb_app. Qed.

Lemma mem_cons_neq k k' r : k <> k' -> mem k (k' :: r) = mem k r.
Proof. intros H. simpl. destruct (N.eqb_spec k k'); [congruence|reflexivity]. Qed.

Lemma mem_cons_eq k r : mem k (k :: r) = true.
Proof. simpl. rewrite N.eqb_refl. reflexivity. Qed.

Lemma mem_snoc_neq k k' wl : k <> k' -> mem k (wl ++ [k']) = mem k wl.
Proof. intros H. rewrite mem_app, (mem_cons_neq _ _ _ H). apply orb_false_r. Qed.

Lemma mem_snoc_eq k wl : mem k (wl ++ [k]) = true.
Proof. rewrite mem_app, mem_cons_eq. apply orb_true_r. Qed.

Lemma remove_first_in k x l : In x (remove_first k l) -> In x l.
Proof.
  induction l as [|y l IH]; simpl; auto.
  destruct (N.eqb k y); simpl; tauto.
Qed.

Lemma remove_first_in_neq k x l : x <> k -> In x l -> In x (remove_first k l).
Proof.
  intros Hn. induction l as [|y l IH]; simpl; auto.
  destruct (N.eqb_spec k y) as [->|Hn2]; simpl; intros [E|E]; auto; congruence.
Qed.

Lemma remove_first_nodup k l : NoDup l -> NoDup (remove_first k l).
Proof.
  induction l as [|y l IH]; simpl; auto.
  intros Hd. inversion Hd as [|? ? Hni Hd']; subst.
  destruct (N.eqb k y); auto. constructor; auto.
  intros H. apply Hni. eapply remove_first_in; eauto.
Qed.

Lemma remove_first_notin k l : NoDup l -> ~ In k (remove_first k l).
Proof.
  induction l as [|y l IH]; simpl; auto.
  intros Hd. inversion Hd as [|? ? Hni Hd']; subst.
  destruct (N.eqb_spec k y) as [->|Hn]; auto.
  simpl. intros [E|E]; [congruence|]. apply IH; auto.
Qed.

Lemma remove_first_id k l : ~ In k l -> remove_first k l = l.
Proof.
  induction l as [|y l IH]; simpl; intros H; [reflexivity|].
  destruct (N.eqb_spec k y) as [->|_]; [tauto|]. rewrite IH; tauto.
Qed.

Lemma mem_remove_first_neq k k' wl : k <> k' -> mem k (remove_first k' wl) = mem k wl.
Proof.
  intros Hn. destruct (mem k wl) eqn:E.
  - apply mem_in, remove_first_in_neq, mem_in; assumption.
  - apply mem_false. intros H. apply remove_first_in in H. apply mem_false in E. tauto.
Qed.

Lemma nodup_snoc (k : N) wl : NoDup wl -> ~ In k wl -> NoDup (wl ++ [k]).
Proof.
  intros Hd Hn. apply NoDup_rev in Hd. rewrite <- (rev_involutive (wl ++ [k])), rev_app_distr.
  apply NoDup_rev. constructor; [rewrite <- in_rev; exact Hn|exact Hd].
Qed.

Lemma len_app {A} (l1 l2 : list A) : len (l1 ++ l2) = (len l1 + len l2)%N.
Proof. unfold len. rewrite app_length. lia. Qed.

Lemma len_cons {A} (x : A) l : len (x :: l) = (len l + 1)%N.
Proof. unfold len. simpl. lia. Qed.

Lemma len_nil {A} : len (@nil A) = 0%N.
Proof. reflexivity. Qed.

Lemma len_zero {A} (l : list A) : len l = 0%N <-> l = [].
Proof. unfold len. destruct l; simpl; split; congruence. Qed.
