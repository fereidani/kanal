(* Inv.v - the invariant of the Atomic model (Appendix C of docs_DESIGN_round0.md: A1-A5, A8), with its
   executable version invb; `stage`, the life cycle of a waiting object as the invariant's obj_okb encodes
   it; and the "movers" that re-establish the invariant after each kind of state change. *)
From KV Require Import Atomic.
From KV.proofs Require Import Assoc.

Definition is_send (o : obj) : bool := match kind_side (o_kind o) with SSend => true | SRecv => false end.
Definition has_val (o : obj) : bool := match o_val o with Some _ => true | None => false end.

(* what an object may look like, given whether it is in the wait list and what
   the list's flag says.  Boolean, so that case analysis computes. *)
Definition obj_okb (listed flag : bool) (o : obj) : bool :=
  match o_fst o, o_sig o with
  | FZero, SLocked => negb listed && kind_async (o_kind o) && Bool.eqb (has_val o) (is_send o)
  | FZero, _ => false
  | FWaiting, SLocked => listed && Bool.eqb flag (negb (is_send o)) && Bool.eqb (has_val o) (is_send o)
  | FWaiting, SOk => negb listed && Bool.eqb (has_val o) (negb (is_send o))
  | FWaiting, STerm => negb listed && Bool.eqb (has_val o) (is_send o)
  | FDone, _ => negb listed && kind_async (o_kind o) && negb (has_val o)
  end.

Fixpoint count_side (s : side) (hs : list (id * side)) : N :=
  match hs with
  | [] => 0
  | (_, s') :: r => (if side_eqb s s' then 1 else 0) + count_side s r
  end.

(* objects and wait list; depends on the channel only through the flag and the list *)
Record InvO (flag : bool) (wl : list id) (os : list (id * obj)) (hs : list (id * side)) : Prop := mkInvO {
  i_keys : NoDup (keys os);
  i_wl : NoDup wl;
  i_listed : forall k, In k wl -> exists o, lookup k os = Some o;
  i_obj : forall k o, lookup k os = Some o -> obj_okb (mem k wl) flag o = true;
  i_borrow : forall k o, lookup k os = Some o -> lookup (o_h o) hs = Some (kind_side (o_kind o))
}.

(* with i_cap, i_sfull says that senders are listed only behind a buffer that is exactly full *)
Record InvQ (c : chan) : Prop := mkInvQ {
  i_cap : (len (queue c) <= capacity c)%N;
  i_rempty : recv_blocking c = true -> wait_list c <> [] -> queue c = [];
  i_sfull : recv_blocking c = false -> wait_list c <> [] -> (capacity c <= len (queue c))%N
}.

Record InvC (c : chan) (hs : list (id * side)) : Prop := mkInvC {
  i_closed : send_count c = 0%N \/ recv_count c = 0%N -> wait_list c = [];
  i_hkeys : NoDup (keys hs);
  i_counts : (send_count c = count_side SSend hs /\ recv_count c = count_side SRecv hs) \/
             (send_count c = 0%N /\ recv_count c = 0%N)
}.

Definition Inv (a : aconf) : Prop :=
  InvO (recv_blocking (ch a)) (wait_list (ch a)) (objs a) (handles a) /\ InvQ (ch a) /\ InvC (ch a) (handles a).

(* executable version: the extracted driver evaluates it at every configuration that its generated
   histories visit (coq/extract/driver.ml: `walk`, `gen`); no theorem relates it to Inv *)
Definition nodupb (l : list N) : bool :=
  (fix go (l : list N) := match l with [] => true | x :: r => negb (mem x r) && go r end) l.

Definition invb (a : aconf) : bool :=
  let c := ch a in
  nodupb (keys (objs a)) && nodupb (wait_list c) &&
  forallb (fun k => match lookup k (objs a) with Some _ => true | None => false end) (wait_list c) &&
  forallb (fun p => match lookup (fst p) (objs a) with
                    | Some o => obj_okb (mem (fst p) (wait_list c)) (recv_blocking c) o
                    | None => false end) (objs a) &&
  N.leb (len (queue c)) (capacity c) &&
  (negb (recv_blocking c) || match wait_list c with [] => true | _ => match queue c with [] => true | _ => false end end) &&
  (recv_blocking c || match wait_list c with [] => true | _ => N.leb (capacity c) (len (queue c)) end) &&
  (negb (N.eqb (send_count c) 0 || N.eqb (recv_count c) 0) || match wait_list c with [] => true | _ => false end) &&
  nodupb (keys (handles a)) &&
  ((N.eqb (send_count c) (count_side SSend (handles a)) && N.eqb (recv_count c) (count_side SRecv (handles a)))
   || (N.eqb (send_count c) 0 && N.eqb (recv_count c) 0)) &&
  forallb (fun p => match lookup (o_h (snd p)) (handles a) with
                    | Some s => side_eqb s (kind_side (o_kind (snd p))) | None => false end) (objs a).

Lemma okb_unlisted_flag f f' o : obj_okb false f o = obj_okb false f' o.
Proof. destruct (o_fst o), (o_sig o); reflexivity. Qed.

Lemma okb_unlisted_waiting f o :
  obj_okb false f o = true -> o_fst o = FWaiting -> o_sig o <> SLocked.
Proof. unfold obj_okb. intros H E. rewrite E in H. destruct (o_sig o); simpl in H; congruence. Qed.

Lemma okb_listed f o :
  obj_okb true f o = true ->
  o_fst o = FWaiting /\ o_sig o = SLocked /\ f = negb (is_send o) /\ has_val o = is_send o.
Proof.
  unfold obj_okb. destruct (o_fst o), (o_sig o); try discriminate.
  intros [H1%eqb_prop H2%eqb_prop]%andb_prop. auto.
Qed.

Lemma has_val_false o : has_val o = false -> o_val o = None.
Proof. unfold has_val. destruct (o_val o); congruence. Qed.
Lemma has_val_true o : has_val o = true -> exists v, o_val o = Some v.
Proof. unfold has_val. destruct (o_val o); [eauto|congruence]. Qed.

(* the oldest waiter: of the side the flag announces, waiting on a signal nobody has touched, once in the list *)
Lemma invO_head f k r os hs :
  InvO f (k :: r) os hs ->
  exists o, lookup k os = Some o /\ o_fst o = FWaiting /\ o_sig o = SLocked /\
            is_send o = negb f /\ has_val o = negb f /\ ~ In k r.
Proof.
  intros HO. destruct (i_listed _ _ _ _ HO k (or_introl eq_refl)) as [o Ho].
  pose proof (i_obj _ _ _ _ HO k o Ho) as Hok. rewrite mem_cons_eq in Hok.
  apply okb_listed in Hok as (F & S & -> & V). rewrite negb_involutive.
  pose proof (i_wl _ _ _ _ HO) as [Hn _]%NoDup_cons_iff. exists o. auto 6.
Qed.

(* The life cycle of a waiting object, which obj_okb encodes: a future not yet polled; a waiter in
   the list; a waiter a peer has finished with success (a sender's value taken, a receiver's
   delivered) or terminated (it keeps what it had); a future that has reported its result. *)
Inductive stage (a : aconf) (k : id) (o : obj) : Prop :=
| st_zero : o_fst o = FZero -> o_sig o = SLocked -> kind_async (o_kind o) = true ->
            ~ In k (wait_list (ch a)) -> has_val o = is_send o -> stage a k o
| st_listed : o_fst o = FWaiting -> o_sig o = SLocked -> In k (wait_list (ch a)) ->
              recv_blocking (ch a) = negb (is_send o) -> has_val o = is_send o -> stage a k o
| st_ok : o_fst o = FWaiting -> o_sig o = SOk -> ~ In k (wait_list (ch a)) ->
          has_val o = negb (is_send o) -> stage a k o
| st_term : o_fst o = FWaiting -> o_sig o = STerm -> ~ In k (wait_list (ch a)) ->
            has_val o = is_send o -> stage a k o
| st_done : o_fst o = FDone -> kind_async (o_kind o) = true -> ~ In k (wait_list (ch a)) ->
            has_val o = false -> stage a k o.

Lemma okb_stage a k o :
  obj_okb (mem k (wait_list (ch a))) (recv_blocking (ch a)) o = true -> stage a k o.
Proof.
  unfold obj_okb. destruct (mem k (wait_list (ch a))) eqn:M; [apply mem_in in M|apply mem_false in M];
    destruct (o_fst o) eqn:F, (o_sig o) eqn:S; try discriminate; cbn [negb andb].
  (* what is left is the listed waiter, then the lines of the table for an object that is not listed *)
  - intros [B%eqb_prop V%eqb_prop]%andb_prop. exact (st_listed a k o F S M B V).
  - intros [A V%eqb_prop]%andb_prop. exact (st_zero a k o F S A M V).
  - intros V%eqb_prop. exact (st_ok a k o F S M V).
  - intros V%eqb_prop. exact (st_term a k o F S M V).
  - intros [A V%negb_true_iff]%andb_prop. exact (st_done a k o F A M V).
  - intros [A V%negb_true_iff]%andb_prop. exact (st_done a k o F A M V).
  - intros [A V%negb_true_iff]%andb_prop. exact (st_done a k o F A M V).
Qed.

Lemma stage_of a k o : Inv a -> lookup k (objs a) = Some o -> stage a k o.
Proof. intros (HO & _) Ho. apply okb_stage, (i_obj _ _ _ _ HO k o Ho). Qed.

(* Every change a step makes to the object table and the wait list concerns one key k: its binding is
   replaced, added or removed, and k enters, leaves or keeps its place in the list.  What has to be
   checked is the new binding of k; all other keys are looked up, and listed, as before. *)
Lemma invO_change f wl wl' os os' hs k :
  InvO f wl os hs ->
  NoDup (keys os') -> NoDup wl' ->
  (forall k', k' <> k -> lookup k' os' = lookup k' os /\ mem k' wl' = mem k' wl) ->
  (In k wl' -> lookup k os' <> None) ->
  (forall o, lookup k os' = Some o ->
             obj_okb (mem k wl') f o = true /\ lookup (o_h o) hs = Some (kind_side (o_kind o))) ->
  InvO f wl' os' hs.
Proof.
  intros [K W L O B] K' W' Hoth Hin Hk.
  assert (Hl : forall k' o, lookup k' os' = Some o ->
                 obj_okb (mem k' wl') f o = true /\ lookup (o_h o) hs = Some (kind_side (o_kind o))).
  { intros k' o E. destruct (N.eq_dec k' k) as [->|Hn]; [auto|].
    destruct (Hoth k' Hn) as [E1 ->]. rewrite E1 in E. split; [apply O|apply (B k')]; exact E. }
  constructor; auto.
  - intros k' Hi. destruct (N.eq_dec k' k) as [->|Hn].
    + destruct (lookup k os'); [eauto|]. exfalso. apply (Hin Hi eq_refl).
    + destruct (Hoth k' Hn) as [-> Hm]. apply L, mem_in. rewrite <- Hm. apply mem_in, Hi.
  - intros k' o E. apply (Hl k' o E).
  - intros k' o E. apply (Hl k' o E).
Qed.

Lemma invO_flag f f' os hs : InvO f [] os hs -> InvO f' [] os hs.
Proof. intros [K W L O B]. constructor; auto. Qed.

Lemma invO_update f wl wl' os hs k o o' :
  InvO f wl os hs -> lookup k os = Some o ->
  o_kind o' = o_kind o -> o_h o' = o_h o ->
  NoDup wl' -> (forall k', k' <> k -> mem k' wl' = mem k' wl) ->
  obj_okb (mem k wl') f o' = true ->
  InvO f wl' (update k o' os) hs.
Proof.
  intros HO Ho Hkind Hh W' Hm Hok.
  apply (invO_change f wl wl' os _ hs k HO); auto.
  - rewrite keys_update. apply (i_keys _ _ _ _ HO).
  - split; [apply lookup_update_neq|]; auto.
  - rewrite lookup_update, N.eqb_refl, Ho. discriminate.
  - intros o1. rewrite lookup_update, N.eqb_refl, Ho. intros [= <-].
    rewrite Hkind, Hh. split; [exact Hok|]. apply (i_borrow _ _ _ _ HO k o Ho).
Qed.

Lemma invO_pop f k r os hs o o' :
  InvO f (k :: r) os hs -> lookup k os = Some o ->
  o_kind o' = o_kind o -> o_h o' = o_h o -> obj_okb false f o' = true ->
  InvO f r (update k o' os) hs.
Proof.
  intros HO Ho Hkind Hh Hok. pose proof (i_wl _ _ _ _ HO) as Hd. inversion Hd as [|? ? Hn Hd']; subst.
  apply (invO_update _ _ _ _ _ _ o o' HO); auto.
  - intros k' Hk'. symmetry. apply mem_cons_neq, Hk'.
  - apply mem_false in Hn. rewrite Hn. exact Hok.
Qed.

Lemma invO_unbound f wl os hs k : InvO f wl os hs -> lookup k os = None -> ~ In k wl.
Proof. intros HO Hk Hi. destruct (i_listed _ _ _ _ HO k Hi). congruence. Qed.

Lemma invO_add f wl wl' os hs k o :
  InvO f wl os hs -> lookup k os = None ->
  wl' = wl \/ wl' = wl ++ [k] ->
  obj_okb (mem k wl') f o = true -> lookup (o_h o) hs = Some (kind_side (o_kind o)) ->
  InvO f wl' ((k, o) :: os) hs.
Proof.
  intros HO Hk Hwl Hok Hb. pose proof (invO_unbound _ _ _ _ _ HO Hk) as Hn.
  apply (invO_change f wl wl' os _ hs k HO).
  - simpl. constructor; [apply lookup_none, Hk|apply (i_keys _ _ _ _ HO)].
  - destruct Hwl as [->| ->]; [|apply nodup_snoc; auto]; apply (i_wl _ _ _ _ HO).
  - intros k' Hn'. rewrite lookup_cons. destruct (N.eqb_spec k' k); [tauto|].
    destruct Hwl as [->| ->]; auto using mem_snoc_neq.
  - rewrite lookup_cons, N.eqb_refl. discriminate.
  - intros o1. rewrite lookup_cons, N.eqb_refl. intros [= <-]. auto.
Qed.

Lemma invO_remove f wl os hs k : InvO f wl os hs -> InvO f (remove_first k wl) (remove_key k os) hs.
Proof.
  intros HO. pose proof (i_keys _ _ _ _ HO) as K.
  apply (invO_change f wl _ os _ hs k HO).
  - apply nodup_remove, K.
  - apply remove_first_nodup, (i_wl _ _ _ _ HO).
  - intros k' Hn. split; [apply lookup_remove_neq|apply mem_remove_first_neq]; exact Hn.
  - intros Hi. exfalso. eapply remove_first_notin; [apply (i_wl _ _ _ _ HO)|exact Hi].
  - rewrite lookup_remove_eq by exact K. discriminate.
Qed.

Lemma invO_add_handle f wl os hs h s :
  InvO f wl os hs -> lookup h hs = None -> InvO f wl os ((h, s) :: hs).
Proof.
  intros [K W L O B] Hh. constructor; auto.
  intros k o E. specialize (B k o E). rewrite lookup_cons.
  destruct (N.eqb_spec (o_h o) h) as [Eh|Hn]; [congruence|exact B].
Qed.

Lemma invO_remove_handle f wl os hs h :
  InvO f wl os hs -> (forall k o, lookup k os = Some o -> o_h o <> h) ->
  InvO f wl os (remove_key h hs).
Proof.
  intros [K W L O B] Hh. constructor; auto.
  intros k o E. rewrite lookup_remove_neq; [eapply B; eauto|]. eapply Hh; eauto.
Qed.

Lemma inv_objs a os :
  Inv a -> InvO (recv_blocking (ch a)) (wait_list (ch a)) os (handles a) -> Inv (with_objs a os).
Proof. intros (_ & HQ & HC) HO. exact (conj HO (conj HQ HC)). Qed.

Lemma put_put a f o o' : put (put a f o) f o' = put a f o'.
Proof. unfold put. simpl. rewrite update_update. reflexivity. Qed.

Lemma lookup_put a f o o' : lookup f (objs a) = Some o -> lookup f (objs (put a f o')) = Some o'.
Proof. intros Ho. apply lookup_update_eq, (lookup_in _ _ _ Ho). Qed.

Lemma inv_put a f o o' :
  Inv a -> lookup f (objs a) = Some o -> o_kind o' = o_kind o -> o_h o' = o_h o ->
  obj_okb (mem f (wait_list (ch a))) (recv_blocking (ch a)) o' = true -> Inv (put a f o').
Proof.
  intros HI Ho Hk Hh Hok. apply inv_objs; [exact HI|]. destruct HI as (HO & _).
  apply (invO_update _ _ _ _ _ _ o o' HO); auto. apply (i_wl _ _ _ _ HO).
Qed.

Lemma inv_new a f o :
  Inv a -> lookup f (objs a) = None -> obj_okb false (recv_blocking (ch a)) o = true ->
  lookup (o_h o) (handles a) = Some (kind_side (o_kind o)) -> Inv (with_objs a ((f, o) :: objs a)).
Proof.
  intros HI Hf Hok Hb. apply inv_objs; [exact HI|]. destruct HI as (HO & _).
  apply (invO_add _ _ _ _ _ _ _ HO Hf (or_introl eq_refl)); [|exact Hb].
  apply invO_unbound with (1 := HO), mem_false in Hf. rewrite Hf. exact Hok.
Qed.

Lemma count_side_pos h s hs : lookup h hs = Some s -> (1 <= count_side s hs)%N.
Proof.
  induction hs as [|[h' s'] hs IH]; [discriminate|].
  rewrite lookup_cons. simpl. destruct (N.eqb h h').
  - intros [= ->]. destruct s; simpl; lia.
  - intros E. specialize (IH E). lia.
Qed.

Lemma is_side_lookup a h s : is_side a h s = true -> lookup h (handles a) = Some s.
Proof.
  unfold is_side, handle_side. destruct (lookup h (handles a)) as [s'|]; [|discriminate].
  intros E%side_eqb_eq. congruence.
Qed.

Lemma fresh_lookup a k : fresh a k = true -> lookup k (objs a) = None.
Proof. unfold fresh. destruct (lookup k (objs a)); congruence. Qed.

(* while the other side has a handle, a live handle's own count is not 0 (on a closed channel both
   counts are 0 whatever handles live) *)
Lemma live_count a h s :
  Inv a -> lookup h (handles a) = Some s ->
  match s with
  | SSend => recv_count (ch a) <> 0%N -> send_count (ch a) <> 0%N
  | SRecv => send_count (ch a) <> 0%N -> recv_count (ch a) <> 0%N
  end.
Proof.
  intros (_ & _ & [_ _ Ct]) Hh%count_side_pos. destruct s, Ct as [[E1 E2]|[E1 E2]]; lia.
Qed.

Lemma unbound_unlisted a k : Inv a -> lookup k (objs a) = None -> ~ In k (wait_list (ch a)).
Proof. intros (HO & _). apply (invO_unbound _ _ _ _ _ HO). Qed.

Definition forget (a : aconf) (k : id) : aconf :=
  mkConf (set_wait (ch a) (remove_first k (wait_list (ch a)))) (remove_key k (objs a)) (handles a).

Lemma inv_forget a k : Inv a -> Inv (forget a k).
Proof.
  intros (HO & [Cp Re Sf] & [Cl Hk Ct]).
  assert (E : wait_list (ch a) = [] -> remove_first k (wait_list (ch a)) = []) by (intros ->; reflexivity).
  split; [apply invO_remove, HO|split; constructor; eauto].
Qed.

Lemma forget_gone a k :
  Inv a -> lookup k (objs (forget a k)) = None /\ ~ In k (wait_list (ch (forget a k))).
Proof.
  intros (HO & _). split; [apply lookup_remove_eq, (i_keys _ _ _ _ HO)|apply remove_first_notin, (i_wl _ _ _ _ HO)].
Qed.

Lemma inv_register a k os :
  Inv a -> InvO (recv_blocking (ch a)) (wait_list (ch a) ++ [k]) os (handles a) ->
  (if recv_blocking (ch a) then queue (ch a) = [] else (capacity (ch a) <= len (queue (ch a)))%N) ->
  send_count (ch a) <> 0%N -> recv_count (ch a) <> 0%N ->
  Inv (mkConf (push_wait (ch a) k) os (handles a)).
Proof.
  intros (_ & [Cp Re Sf] & [Cl Hk Ct]) HO Hq Hs Hr.
  split; [exact HO|split; constructor; simpl; auto].
  - intros F _. rewrite F in Hq. exact Hq.
  - intros F _. rewrite F in Hq. exact Hq.
  - intros [E|E]; congruence.
Qed.

Lemma inv_idle a q b :
  Inv a -> wait_list (ch a) = [] -> (len q <= capacity (ch a))%N ->
  Inv (with_ch a (set_flag (set_queue (ch a) q) b)).
Proof.
  intros (HO & _ & [Cl Hk Ct]) W Hq. rewrite W in HO.
  split; [simpl; rewrite W; apply (invO_flag _ _ _ _ HO)|split; constructor; simpl; auto];
    rewrite W; intros _ []; reflexivity.
Qed.

Lemma inv_flag a b :
  Inv a -> recv_blocking (ch a) = b \/ wait_list (ch a) = [] -> Inv (with_ch a (set_flag (ch a) b)).
Proof.
  intros HI [<-|W].
  - destruct a as [[] ? ?]. exact HI.
  - apply (inv_idle a (queue (ch a)) b HI W), (i_cap _ (proj1 (proj2 HI))).
Qed.

(* the head of the list is served: a receiver is given a value, a sender's is taken.  A refill replaces the
   queue v :: q by q ++ [y], and InvQ sees the queue only through its length *)
Lemma inv_serve a k r o v q :
  Inv a -> wait_list (ch a) = k :: r -> lookup k (objs a) = Some o ->
  is_send o = match v with Some _ => false | None => true end -> len q = len (queue (ch a)) ->
  Inv (mkConf (set_queue (set_wait (ch a) r) q) (update k (set_sig (set_val o v) SOk) (objs a)) (handles a)).
Proof.
  intros (HO & [Cp Re Sf] & [Cl Hk Ct]) W Ho Hs Hq. rewrite W in *.
  destruct (invO_head _ _ _ _ _ HO) as (o1 & Ho1 & F & _). assert (o1 = o) as -> by congruence.
  split; [apply (invO_pop _ _ _ _ _ o _ HO Ho); auto|split; constructor; simpl; rewrite ?Hq; auto].
  - unfold obj_okb, has_val, is_send in *. simpl. rewrite F, Hs. destruct v; reflexivity.
  - intros Fl _. apply len_zero. rewrite Hq, Re; [reflexivity|exact Fl|discriminate].
  - intros Fl _. apply Sf; [exact Fl|discriminate].
  - intros H. discriminate (Cl H).
Qed.
