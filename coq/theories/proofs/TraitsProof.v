(* TraitsProof.v - C20: the verdicts of the derivation model over the struct definitions and unsafe impls of the
   current source, as the table the check compares with rustc's; the theorems are in props/C20.v *)
From KV Require Import Traits.
From KV.gen Require Import Gen_Traits.

(* fuel 40: `derives` answers false when it runs out; it does not here (the 56 verdicts are those of fuel 400) *)
Definition dv (tsend tsync : bool) (tr : trait) (n : string) : bool :=
  derives struct_defs type_aliases explicit_impls tsend tsync 40 tr (TApp n [TParam]).

(* the full verdict table (compared with rustc's verdicts by the check) *)
Definition verdicts : list (string * bool * bool * bool * bool) :=
  flat_map (fun n => flat_map (fun ts => flat_map (fun ty => [(n, ts, ty, dv ts ty Send n, dv ts ty Sync n)]) [true; false]) [true; false])
           (public_handles ++ public_futures).
