(* Closed.v - handle counts and close (C10, C11, C12): the counts are those of the live handles unless the channel
   is closed; a closed channel stays closed; the critical sections fail at once on it *)
From KV Require Import Atomic.
From KV.proofs Require Import Assoc Inv Cases StepInv Frames.

Definition closed (a : aconf) : Prop := send_count (ch a) = 0%N /\ recv_count (ch a) = 0%N.

Lemma counts_live a :
  Inv a -> ~ closed a ->
  send_count (ch a) = count_side SSend (handles a) /\ recv_count (ch a) = count_side SRecv (handles a).
Proof. intros (_ & _ & [_ _ [H|H]]) Hn; [exact H|contradiction]. Qed.

Theorem reachable_counts b cap ls :
  let a := fst (arun (init b cap) ls) in
  (send_count (ch a) = count_side SSend (handles a) /\ recv_count (ch a) = count_side SRecv (handles a)) \/ closed a.
Proof. exact (i_counts _ _ (proj2 (proj2 (reachable_inv b cap ls)))). Qed.

Theorem closed_forever a l : Inv a -> closed a -> closed (fst (astep a l)).
Proof.
  intros HI [S R]. destruct (handle_label l) eqn:Hl.
  - (* clone and drop change a count only when it is positive; a second close changes nothing *)
    destruct l; try discriminate; simpl; unfold closed.
    + unfold step_clone. destruct (handle_side a h) as [s|]; [|auto]. destruct (handle_side a h'); [auto|].
      destruct s; simpl; rewrite ?S, ?R; auto.
    + unfold step_drop_handle. destruct (handle_side a h) as [s|]; [|auto]. destruct (borrowed a h); [auto|].
      destruct s; rewrite ?S, ?R; simpl; destruct (remove_key h (handles a)); auto.
    + unfold step_close. destruct (handle_side a h); [|auto]. rewrite S, R. auto.
  - destruct (astep_meta a l HI Hl) as [[= Hr Hs _] _]. split; congruence.
Qed.

Theorem closed_forever_run ls : forall a, Inv a -> closed a -> closed (fst (arun a ls)).
Proof.
  induction ls as [|l ls IH]; intros a HI Hc; simpl; [exact Hc|].
  pose proof (astep_inv a l HI) as H1. pose proof (closed_forever a l HI Hc) as H2.
  destruct (astep a l) as [a1 o]. specialize (IH a1 H1 H2). destruct (arun a1 ls). exact IH.
Qed.

(* the critical sections fail at once on a closed channel; the steps that begin with one follow by
   unfolding *)
Lemma cs_send_closed a x : closed a -> cs_send a x = SCErr EClosed.
Proof. intros [S R]. unfold cs_send. rewrite R, S. reflexivity. Qed.
Lemma cs_recv_closed a : closed a -> cs_recv a = RCClosed.
Proof. intros [S R]. unfold cs_recv. rewrite R. reflexivity. Qed.

