(* Fifo.v - C02: messages leave the channel in the order they entered it.
   `pending a` is the channel's order of waiting values: the buffer, then the values of the
   blocked / pending senders in wait-list order.  Every step either leaves it alone (or deletes
   from it: cancelled, timed-out, terminated waiters, close), appends the entering value at its
   END, takes values from its FRONT, or hands the entering value to a waiting receiver while it is
   empty (`fifo_step`).  Hence, over any execution, the sequence of values taken followed by what is
   still pending is an order-preserving subsequence of the sequence of values entered: no value
   overtakes another.  The file also holds the little that is needed about `Subseq`, and the exact
   result of drain_into (`drain_senders_spec`, `step_drain_spec`; Drain.v and VecDrain.v rest on it). *)
From KV Require Import Atomic.
From KV.proofs Require Import Assoc Inv Cases StepInv Ledger.

Inductive Subseq {A} : list A -> list A -> Prop :=
| ss_nil : Subseq [] []
| ss_skip x l1 l2 : Subseq l1 l2 -> Subseq l1 (x :: l2)
| ss_take x l1 l2 : Subseq l1 l2 -> Subseq (x :: l1) (x :: l2).

Lemma ss_refl {A} (l : list A) : Subseq l l.
Proof. induction l; [apply ss_nil|apply ss_take; auto]. Qed.

Lemma ss_nil_l {A} (l : list A) : Subseq [] l.
Proof. induction l; constructor; auto. Qed.

Lemma ss_trans {A} (l1 l2 l3 : list A) : Subseq l1 l2 -> Subseq l2 l3 -> Subseq l1 l3.
Proof.
  intros H12 H23. revert l1 H12. induction H23 as [|x l2 l3 H IH|x l2 l3 H IH]; intros l1 H12.
  - exact H12.
  - constructor. apply IH. exact H12.
  - inversion H12 as [|y m1 m2 Hm|y m1 m2 Hm].
    + constructor. apply IH. exact Hm.
    + apply ss_take. apply IH. exact Hm.
Qed.

Lemma ss_app {A} (a1 a2 b1 b2 : list A) : Subseq a1 a2 -> Subseq b1 b2 -> Subseq (a1 ++ b1) (a2 ++ b2).
Proof. intros H1 H2. induction H1; simpl; [exact H2|apply ss_skip; auto|apply ss_take; auto]. Qed.

Lemma ss_app_l {A} (l1 l2 : list A) : Subseq l1 (l1 ++ l2).
Proof. induction l1; simpl; [apply ss_nil_l|apply ss_take, IHl1]. Qed.

Lemma ss_app_r {A} (l1 l2 : list A) : Subseq l2 (l1 ++ l2).
Proof. induction l1; simpl; [apply ss_refl|apply ss_skip, IHl1]. Qed.

Lemma ss_in {A} (l1 l2 : list A) x : Subseq l1 l2 -> In x l1 -> In x l2.
Proof. intros H. induction H; simpl; intros Hin; auto. destruct Hin; auto. Qed.

Definition kval (os : list (id * obj)) (k : id) : list tag :=
  match lookup k os with Some o => oval o | None => [] end.
Definition listed_vals (os : list (id * obj)) (wl : list id) : list tag := flat_map (kval os) wl.

Definition pending (a : aconf) : list tag :=
  queue (ch a) ++ (if recv_blocking (ch a) then [] else listed_vals (objs a) (wait_list (ch a))).

(* how one step may change it, with E the values entering and T the values taken *)
Inductive fifo_step (p p' E T : list tag) : Prop :=
| fs_keep : E = [] -> T = [] -> Subseq p' p -> fifo_step p p' E T
| fs_enter x : E = [x] -> T = [] -> p' = p ++ [x] -> fifo_step p p' E T
| fs_take : E = [] -> T ++ p' = p -> fifo_step p p' E T
| fs_direct x : E = [x] -> T = [x] -> p = [] -> p' = [] -> fifo_step p p' E T.

(* with D the values taken so far and A the values entered so far *)
Lemma fifo_step_preserves p p' E T D A :
  fifo_step p p' E T -> Subseq (D ++ p) A -> Subseq ((D ++ T) ++ p') (A ++ E).
Proof.
  intros [-> -> Hs| x -> -> -> | -> <- | x -> -> -> ->] H.
  - rewrite !app_nil_r. eapply ss_trans; [|exact H]. apply ss_app; [apply ss_refl|exact Hs].
  - rewrite app_nil_r, app_assoc. apply ss_app; [exact H|apply ss_refl].
  - rewrite app_nil_r, <- app_assoc. exact H.
  - rewrite !app_nil_r in *. apply ss_app; [exact H|apply ss_refl].
Qed.

Lemma listed_vals_cons os (k : id) (r : list id) : listed_vals os (k :: r) = kval os k ++ listed_vals os r.
Proof. reflexivity. Qed.

Lemma listed_vals_app os l1 l2 : listed_vals os (l1 ++ l2) = listed_vals os l1 ++ listed_vals os l2.
Proof. apply flat_map_app. Qed.

Lemma listed_vals_ext os os' wl :
  (forall k, In k wl -> kval os' k = kval os k) -> listed_vals os' wl = listed_vals os wl.
Proof.
  intros H. induction wl as [|k r IH]; [reflexivity|].
  rewrite !listed_vals_cons, (H k (or_introl eq_refl)), IH; [reflexivity|].
  intros k' Hk. apply H. right. exact Hk.
Qed.

Lemma listed_vals_other os os' wl k :
  ~ In k wl -> (forall k', k' <> k -> lookup k' os' = lookup k' os) -> listed_vals os' wl = listed_vals os wl.
Proof.
  intros Hn H. apply listed_vals_ext. intros k' Hk. unfold kval. rewrite H; [reflexivity|].
  intros ->. exact (Hn Hk).
Qed.

Lemma listed_vals_update_other os wl k o :
  ~ In k wl -> listed_vals (update k o os) wl = listed_vals os wl.
Proof. intros Hn. apply (listed_vals_other _ _ _ k Hn). intros k' Hk. apply lookup_update_neq, Hk. Qed.

Lemma listed_vals_cons_other os wl k o :
  ~ In k wl -> listed_vals ((k, o) :: os) wl = listed_vals os wl.
Proof.
  intros Hn. apply (listed_vals_other _ _ _ k Hn). intros k' Hk. rewrite lookup_cons.
  destruct (N.eqb_spec k' k); [contradiction|reflexivity].
Qed.

Lemma listed_vals_same_oval os wl k o o' :
  lookup k os = Some o -> oval o' = oval o -> listed_vals (update k o' os) wl = listed_vals os wl.
Proof.
  intros Ho Hv. apply listed_vals_ext. intros k' _. unfold kval. rewrite lookup_update.
  destruct (N.eqb_spec k' k) as [->|_]; [rewrite Ho; exact Hv|reflexivity].
Qed.

Lemma term_all_listed wl : forall os ks,
  listed_vals (fst (term_all wl os)) ks = listed_vals os ks.
Proof.
  intros os ks. apply listed_vals_ext. intros k _. unfold kval. rewrite term_all_lookup.
  destruct (mem k wl), (lookup k os); reflexivity.
Qed.

Lemma listed_vals_take os (k : id) (r : list id) o y o' :
  lookup k os = Some o -> o_val o = Some y -> ~ In k r ->
  listed_vals os (k :: r) = y :: listed_vals (update k o' os) r.
Proof.
  intros Ho Hy Hn. rewrite listed_vals_cons, (listed_vals_update_other _ _ _ _ Hn).
  unfold kval, oval. rewrite Ho, Hy. reflexivity.
Qed.

Lemma listed_vals_cancel os wl k :
  NoDup wl -> Subseq (listed_vals (remove_key k os) (remove_first k wl)) (listed_vals os wl).
Proof.
  induction wl as [|y r IH]; intros Hd; [apply ss_nil|].
  apply NoDup_cons_iff in Hd as [Hn Hd]. cbn [remove_first]. destruct (N.eqb_spec k y) as [->|Hk].
  - rewrite (listed_vals_other _ _ _ y Hn (fun k' Hk => lookup_remove_neq k' y os Hk)). apply ss_app_r.
  - rewrite !listed_vals_cons. unfold kval at 1. rewrite (lookup_remove_neq _ _ _ (not_eq_sym Hk)).
    apply ss_app; [apply ss_refl|apply IH, Hd].
Qed.

Lemma pending_nobody a : wait_list (ch a) = [] -> pending a = queue (ch a).
Proof. intros W. unfold pending. rewrite W. destruct (recv_blocking (ch a)); apply app_nil_r. Qed.

Lemma pending_receivers a : recv_blocking (ch a) = true -> pending a = queue (ch a).
Proof. intros F. unfold pending. rewrite F. apply app_nil_r. Qed.

(* the flag is flipped lazily: nobody of the other side is listed *)
Lemma pending_flag a b :
  recv_blocking (ch a) = b \/ wait_list (ch a) = [] -> pending (with_ch a (set_flag (ch a) b)) = pending a.
Proof.
  intros [<-|W].
  - reflexivity.
  - rewrite (pending_nobody a W). apply (pending_nobody (with_ch a (set_flag (ch a) b)) W).
Qed.

Lemma pending_put_unlisted a f o' : ~ In f (wait_list (ch a)) -> pending (put a f o') = pending a.
Proof. intros Hn. unfold pending. simpl. rewrite (listed_vals_update_other _ _ _ _ Hn). reflexivity. Qed.

Lemma pending_put_same a f o o' :
  lookup f (objs a) = Some o -> oval o' = oval o -> pending (put a f o') = pending a.
Proof.
  intros Ho Hv. unfold pending. simpl. rewrite (listed_vals_same_oval _ _ _ _ _ Ho Hv). reflexivity.
Qed.

Lemma pending_new a f o :
  ~ In f (wait_list (ch a)) -> pending (with_objs a ((f, o) :: objs a)) = pending a.
Proof. intros Hn. unfold pending. simpl. rewrite (listed_vals_cons_other _ _ _ _ Hn). reflexivity. Qed.

Lemma pending_forget a k : NoDup (wait_list (ch a)) -> Subseq (pending (forget a k)) (pending a).
Proof.
  intros Hd. unfold pending. simpl. apply ss_app; [apply ss_refl|].
  destruct (recv_blocking (ch a)); [apply ss_refl|apply listed_vals_cancel, Hd].
Qed.

Lemma pending_register a k os :
  recv_blocking (ch a) = false ->
  listed_vals os (wait_list (ch a)) = listed_vals (objs a) (wait_list (ch a)) ->
  pending (mkConf (push_wait (ch a) k) os (handles a)) = pending a ++ kval os k.
Proof.
  intros F E. unfold pending. simpl. rewrite F, listed_vals_app, E, listed_vals_cons.
  rewrite app_nil_r. apply app_assoc.
Qed.

Lemma pending_add_obj a k o :
  recv_blocking (ch a) = false -> ~ In k (wait_list (ch a)) -> pending (add_obj a k o) = pending a ++ oval o.
Proof.
  intros F Hn. unfold add_obj. rewrite (pending_register a k _ F (listed_vals_cons_other _ _ _ _ Hn)).
  unfold kval. rewrite lookup_cons, N.eqb_refl. reflexivity.
Qed.

Lemma pending_arm a f o o' :
  recv_blocking (ch a) = false -> ~ In f (wait_list (ch a)) -> lookup f (objs a) = Some o ->
  pending (with_ch (put a f o') (push_wait (ch (put a f o')) f)) = pending a ++ oval o'.
Proof.
  intros F Hn Ho. unfold with_ch. simpl.
  rewrite (pending_register a f _ F (listed_vals_update_other _ _ _ _ Hn)).
  unfold kval. rewrite (lookup_update_eq _ _ _ (lookup_in _ _ _ Ho)). reflexivity.
Qed.

(* (pending does not look at the counts or the handle table, which close and drop change first: pending_counts) *)
Lemma pending_terminate a : Subseq (pending (fst (terminate_signals a))) (pending a).
Proof.
  rewrite terminate_signals_fst. unfold pending. simpl.
  apply ss_app; [apply ss_refl|]. destruct (recv_blocking (ch a)); [apply ss_refl|apply ss_nil_l].
Qed.

Lemma pending_counts c os hs r s :
  pending (mkConf (set_counts c r s) os hs) = pending (mkConf c os hs).
Proof. reflexivity. Qed.

(* the buffer dies: at close, and with the last handle *)
Lemma pending_clear a : Subseq (pending (with_ch a (set_queue (ch a) []))) (pending a).
Proof. apply ss_app_r. Qed.

Definition nonempty {A} (l : list A) : bool := match l with [] => false | _ => true end.

(* a send whose critical section accepts the value: it enters; it is also taken at once when
   it is handed to a waiting receiver.  `registers`: a full channel makes this call wait in line *)
Definition send_et (a : aconf) (x : tag) (registers : bool) : list tag * list tag :=
  match cs_send a x with
  | SCErr _ => ([], [])
  | SCSent _ _ => ([x], if recv_blocking (ch a) && nonempty (wait_list (ch a)) then [x] else [])
  | SCFull _ => (if registers then [x] else [], [])
  end.

Definition recv_t (a : aconf) : list tag := match cs_recv a with RCGot v _ _ => [v] | _ => [] end.

(* The values that enter the channel's order and the values taken out of it at a step: a specification written
   beside `astep`, label by label.  A value handed to a waiting receiver is taken in the step of its send; the
   LComplete or the poll by which that receiver picks it up later takes nothing (header of props/C02.v). *)
Definition et (a : aconf) (l : label) : list tag * list tag :=
  match l with
  | LSend k h x | LSendTimeout k h x | LSendOptTimeout k h (Some x) =>
      if is_side a h SSend && fresh a k then send_et a x true else ([], [])
  | LTrySend h x | LTrySendOpt h (Some x) => if is_side a h SSend then send_et a x false else ([], [])
  | LTrySendRT h x busy | LTrySendOptRT h (Some x) busy =>
      if busy then ([], []) else if is_side a h SSend then send_et a x false else ([], [])
  | LRecv k h | LRecvTimeout k h _ => if is_side a h SRecv && fresh a k then ([], recv_t a) else ([], [])
  | LTryRecv h => if is_side a h SRecv then ([], recv_t a) else ([], [])
  | LTryRecvRT h busy => if busy then ([], []) else if is_side a h SRecv then ([], recv_t a) else ([], [])
  | LDrain h =>
      if is_side a h SRecv && negb (N.eqb (recv_count (ch a)) 0) then ([], pending a) else ([], [])
  | LPoll f w =>
      match lookup f (objs a) with
      | Some o =>
          match o_kind o, o_fst o with
          | KSendFut, FZero => match o_val o with Some x => send_et a x true | None => ([], []) end
          | KRecvFut, FZero => ([], recv_t a)
          | KStream, FZero | KStream, FDone => if o_term o then ([], []) else ([], recv_t a)
          | _, _ => ([], [])
          end
      | None => ([], [])
      end
  | _ => ([], [])
  end.

Definition fifo_ok (a : aconf) (l : label) : Prop :=
  fifo_step (pending a) (pending (fst (astep a l))) (fst (et a l)) (snd (et a l)).

(* the step from a to a' is in order, with `io` the values that enter and the values taken *)
Definition fifo_to (a a' : aconf) (io : list tag * list tag) : Prop :=
  fifo_step (pending a) (pending a') (fst io) (snd io).

Lemma fifo_keeps a a' : Subseq (pending a') (pending a) -> fifo_to a a' ([], []).
Proof. apply fs_keep; auto. Qed.

Lemma fifo_same a a' : pending a' = pending a -> fifo_to a a' ([], []).
Proof. intros E. apply fifo_keeps. rewrite E. apply ss_refl. Qed.

Lemma fifo_refl a : fifo_to a a ([], []).
Proof. apply fifo_same. reflexivity. Qed.

Lemma send_case_fifo a x :
  Inv a ->
  match cs_send a x with
  | SCErr _ => True
  | SCSent a1 _ =>
      fifo_to a a1 ([x], if recv_blocking (ch a) && nonempty (wait_list (ch a)) then [x] else [])
  | SCFull a1 => pending a1 = pending a /\ recv_blocking (ch a1) = false
  end.
Proof.
  intros HI.
  destruct (cs_send_case a x HI) as [E0|k r0 o N0 F W Ho Hs Hv|c1 N0 [-> Hn]%no_recv_eq Hl|c1 N0 [-> Hn]%no_recv_eq Hl]; auto.
  - (* deliver: receivers are listed, so the buffer is empty before and after *)
    assert (Q : queue (ch a) = []).
    { apply (i_rempty _ (proj1 (proj2 HI)) F). rewrite W. discriminate. }
    rewrite F, W. apply (fs_direct _ _ _ _ x); auto; rewrite pending_receivers; auto.
  - (* buffer: nobody is listed *)
    pose proof (room_nobody a HI Hn Hl) as W.
    rewrite W, andb_false_r. apply (fs_enter _ _ _ _ x); auto.
    rewrite (pending_nobody a W). apply pending_nobody, W.
  - split; [apply (pending_flag a false Hn)|reflexivity].
Qed.

Lemma recv_case_fifo a :
  Inv a ->
  match cs_recv a with
  | RCGot v a1 _ => [v] ++ pending a1 = pending a
  | RCNone a1 => pending a1 = pending a /\ recv_blocking (ch a1) = true
  | _ => True
  end.
Proof.
  intros HI. destruct (cs_recv_case a HI) as [E0|v q k r0 o y N0 Q F W Ho Hs Hv|v q c1 N0 Q [-> Hn]%no_send_eq
                                         |k r0 o y N0 Q F W Ho Hs Hv|c1 N0 Q [-> Hn]%no_send_eq]; auto.
  - (* refill: the oldest sender's value goes to the tail of the buffer *)
    unfold pending. simpl. rewrite F, Q, W.
    rewrite (listed_vals_take _ _ _ _ _ (fin_take o) Ho Hv (head_once a k r0 HI W)), <- app_assoc. reflexivity.
  - (* pop: nobody is listed *)
    pose proof (value_nobody a v q HI Q Hn) as W. rewrite !pending_nobody by exact W. symmetry. exact Q.
  - unfold pending. simpl. rewrite F, Q, W.
    rewrite (listed_vals_take _ _ _ _ _ (fin_take o) Ho Hv (head_once a k r0 HI W)). reflexivity.
  - split; [apply (pending_flag a true Hn)|reflexivity].
Qed.

Lemma step_send_like_fifo a k h x kd :
  Inv a ->
  fifo_to a (fst (step_send_like a k h x kd))
          (if is_side a h SSend && fresh a k then send_et a x true else ([], [])).
Proof.
  intros HI. unfold step_send_like, send_et.
  destruct (is_side a h SSend); [|apply fifo_refl]. destruct (fresh a k) eqn:Hk; [|apply fifo_refl]. simpl.
  pose proof (send_case_fifo a x HI) as H.
  pose proof (send_case_frame a x HI) as Hfr.
  destruct (cs_send a x) as [e|a1 ws|a1]; [apply fifo_refl|exact H|].
  (* the caller joins the senders listed behind a full buffer *)
  destruct H as [Hp F1]. destruct (proj1 Hfr k (unbound_unlisted a k HI (fresh_lookup a k Hk))) as [_ N1].
  apply (fs_enter _ _ _ _ x); auto. simpl. rewrite (pending_add_obj a1 k _ F1 N1), Hp. reflexivity.
Qed.

Lemma step_try_send_fifo a h x opt :
  Inv a ->
  fifo_to a (fst (step_try_send a h x opt)) (if is_side a h SSend then send_et a x false else ([], [])).
Proof.
  intros HI. unfold step_try_send, send_et. destruct (is_side a h SSend); [|apply fifo_refl].
  pose proof (send_case_fifo a x HI) as H.
  destruct (cs_send a x) as [e|a1 ws|a1]; [apply fifo_refl|exact H|apply fifo_same, H].
Qed.

Lemma step_recv_like_fifo a k h timed early :
  Inv a ->
  fifo_to a (fst (step_recv_like a k h timed early))
          (if is_side a h SRecv && fresh a k then ([], recv_t a) else ([], [])).
Proof.
  intros HI. unfold step_recv_like, recv_t.
  destruct (is_side a h SRecv); [|apply fifo_refl]. destruct (fresh a k); [|apply fifo_refl]. simpl.
  pose proof (recv_case_fifo a HI) as H.
  destruct (cs_recv a) as [|v a1 ws|a1|]; [apply fifo_refl|apply fs_take; auto| |apply fifo_refl].
  destruct H as [Hp F1]. destruct (timed && early); [apply fifo_same, Hp|].
  destruct (N.eqb _ 0); apply fifo_same; [exact Hp|].
  (* the caller joins the listed receivers *)
  rewrite <- Hp. simpl. rewrite !pending_receivers by exact F1. reflexivity.
Qed.

Lemma step_try_recv_fifo a h :
  Inv a -> fifo_to a (fst (step_try_recv a h)) (if is_side a h SRecv then ([], recv_t a) else ([], [])).
Proof.
  intros HI. unfold step_try_recv, recv_t. destruct (is_side a h SRecv); [|apply fifo_refl]. simpl.
  pose proof (recv_case_fifo a HI) as H.
  destruct (cs_recv a) as [|v a1 ws|a1|]; [apply fifo_refl|apply fs_take; auto| |apply fifo_refl].
  destruct (N.eqb _ 0); apply fifo_same, H.
Qed.

(* what the loop of drain_into makes of a list of senders: their values in the order of the list, and
   each of them finished with success *)
Lemma drain_senders_spec n : forall c os hs ys c2 os2 ws,
  InvO false (wait_list c) os hs -> recv_blocking c = false ->
  drain_senders n c os = Some (ys, c2, os2, ws) ->
  ys = listed_vals os (wait_list c) /\ length ys = length (wait_list c) /\
  forall k, lookup k os2 = if mem k (wait_list c) then option_map fin_take (lookup k os) else lookup k os.
Proof.
  (* with the channel's record taken apart, next_send computes *)
  induction n as [|n IH]; intros [q f wl cap rc sc] os hs ys c2 os2 ws HO F E; [discriminate|].
  cbn [wait_list recv_blocking] in *. subst f.
  destruct wl as [|k r]; cbn [drain_senders next_send wait_list recv_blocking] in E.
  - injection E as <- <- <- <-. auto.
  - destruct (take_head _ _ _ _ HO) as (o & y & Ho & _ & Hy & Hn & Et & HO1). rewrite Et in E.
    destruct (drain_senders n _ _) as [[[[ys1 c3] os3] ws3]|] eqn:E1; [|discriminate].
    injection E as <- <- <- <-.
    destruct (IH (mkChan q false r cap rc sc) _ _ _ _ _ _ HO1 eq_refl E1) as (-> & Hlen & Hl).
    cbn [wait_list] in Hlen, Hl.
    split; [symmetry; apply (listed_vals_take _ _ _ _ _ _ Ho Hy Hn)|split; [simpl; f_equal; exact Hlen|]].
    intros k'. rewrite Hl. destruct (N.eq_dec k' k) as [->|Hk].
    + apply mem_false in Hn. rewrite Hn, mem_cons_eq, Ho. apply lookup_update_eq, (lookup_in _ _ _ Ho).
    + rewrite (mem_cons_neq _ _ _ Hk), (lookup_update_neq _ _ _ _ Hk). reflexivity.
Qed.

(* drain_into on an open channel takes exactly the pending sequence and releases every listed sender *)
Lemma step_drain_spec a h :
  Inv a -> is_side a h SRecv = true -> recv_count (ch a) <> 0%N ->
  exists a' ws,
    step_drain a h = (a', mkOut (RDrain (len (pending a)) (pending a)) [] ws []) /\
    pending a' = [] /\ queue (ch a') = [] /\
    (recv_blocking (ch a) = false ->
     forall k, lookup k (objs a') =
               if mem k (wait_list (ch a)) then option_map fin_take (lookup k (objs a)) else lookup k (objs a)).
Proof.
  intros HI Hs Hr%N.eqb_neq. unfold step_drain. rewrite Hs, Hr. cbn [negb].
  destruct (recv_blocking (ch a)) eqn:F.
  - (* receivers are listed: only the buffer is taken *)
    unfold drain_senders, next_send. cbn [recv_blocking set_queue]. rewrite F. eexists _, [].
    rewrite (pending_receivers a F), N.add_0_r, app_nil_r.
    split; [reflexivity|split; [|split; [reflexivity|discriminate]]].
    apply (pending_receivers (with_ch a (set_queue (ch a) [])) F).
  - pose proof (proj1 HI) as HO. rewrite F in HO.
    destruct (step_drain_runs a HI) as (ys & os2 & ws & E & _). rewrite E.
    destruct (drain_senders_spec _ (set_queue (ch a) []) _ _ _ _ _ _ HO F E) as (-> & Hlen & Hl).
    cbn [wait_list set_queue] in *. eexists _, ws.
    (* the count is the length of the buffer plus the number of listed senders, and each has given one value (Hlen) *)
    unfold pending at 1 2. rewrite F, len_app. unfold len at 3 4. rewrite Hlen. auto.
Qed.

Lemma step_drain_fifo a h :
  Inv a ->
  fifo_to a (fst (step_drain a h))
          (if is_side a h SRecv && negb (N.eqb (recv_count (ch a)) 0) then ([], pending a) else ([], [])).
Proof.
  intros HI. destruct (is_side a h SRecv) eqn:Hs; [|unfold step_drain; rewrite Hs; apply fifo_refl].
  destruct (N.eqb_spec (recv_count (ch a)) 0) as [Hr|Hr].
  - unfold step_drain. rewrite Hs, Hr. apply fifo_refl.
  - destruct (step_drain_spec a h HI Hs Hr) as (a' & ws & -> & Hp & _).
    apply fs_take; [reflexivity|]. simpl. rewrite Hp. apply app_nil_r.
Qed.

Lemma step_clone_fifo a h h' : pending (fst (step_clone a h h')) = pending a.
Proof.
  unfold step_clone. destruct (handle_side a h) as [s|]; [|reflexivity].
  destruct (handle_side a h'); [reflexivity|]. destruct s; destruct (N.ltb _ _); reflexivity.
Qed.

Lemma step_close_fifo a h : Subseq (pending (fst (step_close a h))) (pending a).
Proof.
  unfold step_close. destruct (handle_side a h); [|apply ss_refl]. destruct (_ && _); [apply ss_refl|].
  pose proof (pending_terminate (with_ch a (set_counts (ch a) 0 0))) as H.
  destruct (terminate_signals _) as [a2 ws]. exact (ss_trans _ _ _ (pending_clear a2) H).
Qed.

Lemma step_drop_handle_fifo a h : Subseq (pending (fst (step_drop_handle a h))) (pending a).
Proof.
  unfold step_drop_handle. destruct (handle_side a h) as [s|]; [|apply ss_refl].
  destruct (borrowed a h); [apply ss_refl|].
  match goal with |- context [let '(a1, ws) := ?X in _] =>
    assert (H : Subseq (pending (fst X)) (pending a)); [|destruct X as [a1 ws]] end.
  { (* the counts follow the handle table; a side that has just gone has its waiters terminated *)
    destruct s; destruct (N.ltb _ _); try apply ss_refl; destruct (_ && _); try apply ss_refl;
      exact (pending_terminate (mkConf _ (objs a) _)). }
  destruct (remove_key h (handles a)); [|exact H]. exact (ss_trans _ _ _ (pending_clear a1) H).
Qed.

Lemma leave_step_fifo a k r : Inv a -> leave_step a k r -> Subseq (pending (fst r)) (pending a).
Proof.
  intros HI [[->|(o & _ & -> & _)] _]; [apply ss_refl|apply pending_forget, (i_wl _ _ _ _ (proj1 HI))].
Qed.

Lemma step_mk_fifo a f h kd v : Inv a -> pending (fst (step_mk a f h kd v)) = pending a.
Proof.
  intros HI. unfold step_mk. destruct (is_side a h _); [|reflexivity].
  destruct (fresh a f) eqn:Hf; [|reflexivity]. apply pending_new, (unbound_unlisted a f HI), fresh_lookup, Hf.
Qed.

Lemma et_poll_waiting a f w o :
  lookup f (objs a) = Some o -> o_fst o = FWaiting -> et a (LPoll f w) = ([], []).
Proof. intros Ho F. unfold et. rewrite Ho, F. destruct (o_kind o); reflexivity. Qed.

Lemma et_poll_send a f w o x :
  lookup f (objs a) = Some o -> o_kind o = KSendFut -> o_fst o = FZero -> o_val o = Some x ->
  et a (LPoll f w) = send_et a x true.
Proof. intros Ho K F Hx. unfold et. rewrite Ho, K, F, Hx. reflexivity. Qed.

Lemma et_poll_recv a f w o : lookup f (objs a) = Some o -> fresh_recv o -> et a (LPoll f w) = ([], recv_t a).
Proof. intros Ho [[K F]|(K & T & [F|F])]; unfold et; rewrite Ho, K, F, ?T; reflexivity. Qed.

Lemma step_poll_fifo a f w : Inv a -> fifo_to a (fst (step_poll a f w)) (et a (LPoll f w)).
Proof.
  intros HI. pose proof (fun x => send_case_fifo a x HI) as HS.
  pose proof (recv_case_fifo a HI) as HR.
  destruct (step_poll_case a f w HI); try specialize (HS x); try rewrite E in HS; try rewrite E in HR; cbn [fst invalid].
  (* in each case first what `et` says of this poll, then what the step did to `pending` *)
  - (* pc_invalid *)
    unfold et. destruct (lookup f (objs a)) as [o|]; [|apply fifo_refl].
    specialize (Hn o eq_refl). destruct (o_kind o); try discriminate Hn; apply fifo_refl.
  - (* pc_pending *)
    rewrite (et_poll_waiting a f w o Ho F). apply fifo_refl.
  - (* pc_refresh *)
    rewrite (et_poll_waiting a f w o Ho F). apply fifo_same, (pending_put_same a f o (set_waker o (Some w)) Ho eq_refl).
  - (* pc_panic *)
    unfold et. rewrite Ho, F. destruct K as [-> | ->]; apply fifo_refl.
  - (* pc_ended *)
    unfold et. rewrite Ho, K, T. destruct (o_fst o); apply fifo_refl.
  - (* pc_finished *)
    rewrite (et_poll_waiting a f w o Ho F). apply fifo_same, (pending_put_unlisted a f _ N).
  - (* pc_send_err *)
    rewrite (et_poll_send a f w o x Ho K F Hx). unfold send_et. rewrite E.
    apply fifo_same, (pending_put_unlisted a f _ N).
  - (* pc_send_sent *)
    rewrite (et_poll_send a f w o x Ho K F Hx). unfold send_et. rewrite E.
    unfold fifo_to. rewrite (pending_put_unlisted a1 f _ N1). exact HS.
  - (* pc_send_full: the future joins the listed senders, its value enters at the end *)
    rewrite (et_poll_send a f w o x Ho K F Hx). unfold send_et. rewrite E. destruct HS as [Hp F1].
    apply (fs_enter _ _ _ _ x); auto. rewrite (pending_arm a1 f o _ F1 N1 Ho1), Hp.
    unfold oval. rewrite (armed_val o o1 R), Hx. reflexivity.
  - (* pc_recv_closed *)
    rewrite (et_poll_recv a f w o Ho Hf). unfold recv_t. rewrite E.
    apply fifo_same, (pending_put_unlisted a f _ N).
  - (* pc_recv_got *)
    rewrite (et_poll_recv a f w o Ho Hf). unfold recv_t. rewrite E.
    apply fs_take; [reflexivity|]. cbn [fst snd]. rewrite (pending_put_unlisted a1 f _ N1). exact HR.
  - (* pc_recv_gone *)
    rewrite (et_poll_recv a f w o Ho Hf). unfold recv_t. rewrite E. destruct HR as [Hp F1].
    apply fifo_same. rewrite <- Hp. apply (pending_put_unlisted a1 f _ N1).
  - (* pc_recv_none: the future joins the listed receivers *)
    rewrite (et_poll_recv a f w o Ho Hf). unfold recv_t. rewrite E. destruct HR as [Hp F1].
    apply fifo_same. rewrite <- Hp, !pending_receivers by exact F1. reflexivity.
Qed.

Theorem astep_fifo a l : Inv a -> fifo_ok a l.
Proof.
  intros HI. change (fifo_to a (fst (astep a l)) (et a l)). by_label l; cbn [astep et];
    try (destruct (is_side a h _); apply fifo_refl);
    auto using step_send_like_fifo, step_try_send_fifo, step_recv_like_fifo, step_try_recv_fifo,
      step_drain_fifo, fifo_same, step_clone_fifo, step_mk_fifo, fifo_keeps, step_drop_handle_fifo, step_close_fifo.
  - unfold step_obs. destruct (handle_side a h); apply fifo_refl.
  - apply fifo_keeps, (leave_step_fifo a k _ HI), step_complete_case, HI.
  - apply fifo_keeps, (leave_step_fifo a k _ HI), step_timeout_case, HI.
  - apply (step_poll_fifo a f w HI).
  - apply fifo_keeps, (leave_step_fifo a f _ HI), step_drop_fut_case, HI.
  - unfold step_stream_term. destruct (lookup f (objs a)) as [o|]; [destruct (o_kind o)|]; apply fifo_refl.
Qed.

Fixpoint entered_run (a : aconf) (ls : list label) : list tag :=
  match ls with [] => [] | l :: r => fst (et a l) ++ entered_run (fst (astep a l)) r end.
Fixpoint taken_run (a : aconf) (ls : list label) : list tag :=
  match ls with [] => [] | l :: r => snd (et a l) ++ taken_run (fst (astep a l)) r end.

Lemma arun_fifo ls : forall a D A, Inv a ->
  Subseq (D ++ pending a) A ->
  Subseq ((D ++ taken_run a ls) ++ pending (fst (arun a ls))) (A ++ entered_run a ls).
Proof.
  induction ls as [|l ls IH]; intros a D A HI H; simpl.
  - rewrite !app_nil_r. exact H.
  - specialize (IH _ _ _ (astep_inv a l HI) (fifo_step_preserves _ _ _ _ D A (astep_fifo a l HI) H)).
    destruct (astep a l) as [a1 o]. cbn [fst] in IH |- *. destruct (arun a1 ls) as [a2 os].
    rewrite !app_assoc. exact IH.
Qed.

(* C02: over any execution from a fresh channel, the values taken (by receives, hand-offs and
   drains, in that order) followed by what is still waiting form an order-preserving subsequence
   of the values in the order they entered the channel *)
Theorem fifo b cap ls :
  Subseq (taken_run (init b cap) ls ++ pending (fst (arun (init b cap) ls))) (entered_run (init b cap) ls).
Proof.
  apply (arun_fifo ls (init b cap) [] [] (init_inv b cap)), ss_nil.
Qed.

(* the consequence in the property's words: if x entered before y and both were taken, x was taken first *)
Fixpoint index_of (x : tag) (l : list tag) : option nat :=
  match l with [] => None | y :: r => if N.eqb x y then Some O else option_map S (index_of x r) end.

Lemma index_of_in x l i : index_of x l = Some i -> In x l.
Proof.
  revert i. induction l as [|y r IH]; intros i; simpl; [discriminate|].
  destruct (N.eqb_spec x y) as [->|_]; [auto|]. destruct (index_of x r); [eauto|discriminate].
Qed.

Lemma in_index_of x l : In x l -> exists i, index_of x l = Some i.
Proof.
  induction l as [|y r IH]; simpl; [tauto|]. destruct (N.eqb_spec x y) as [->|Hn]; [eauto|].
  intros [E|[i ->]%IH]; [congruence|simpl; eauto].
Qed.

Lemma subseq_order (l1 l2 : list tag) x y :
  NoDup l2 -> Subseq l1 l2 ->
  forall i j, index_of x l1 = Some i -> index_of y l1 = Some j -> i < j ->
  exists i' j', index_of x l2 = Some i' /\ index_of y l2 = Some j' /\ i' < j'.
Proof.
  intros Hd Hs. induction Hs as [|z l1 l2 Hs IH|z l1 l2 Hs IH]; intros i j Hi Hj Hlt; [discriminate|..];
    apply NoDup_cons_iff in Hd as [Hn Hd].
  - (* z is not in l1: neither x nor y is z, both positions move by one *)
    destruct (IH Hd i j Hi Hj Hlt) as (i' & j' & H1 & H2 & H3%le_n_S). exists (S i'), (S j'). simpl.
    destruct (N.eqb_spec x z) as [->|_]; [destruct (Hn (index_of_in _ _ _ H1))|].
    destruct (N.eqb_spec y z) as [->|_]; [destruct (Hn (index_of_in _ _ _ H2))|].
    rewrite H1, H2. auto.
  - simpl in Hi, Hj |- *. destruct (N.eqb_spec y z) as [->|_].
    + (* y is the head: nothing comes before it *)
      injection Hj as <-. inversion Hlt.
    + destruct (index_of y l1) as [j0|] eqn:Ej; [|discriminate]. injection Hj as <-.
      destruct (N.eqb_spec x z) as [->|_].
      * (* x is the head, y is found further on in l1, hence in l2 *)
        destruct (in_index_of y l2 (ss_in _ _ _ Hs (index_of_in _ _ _ Ej))) as [j' ->].
        exists 0, (S j'). auto using le_n_S, le_0_n.
      * destruct (index_of x l1) as [i0|]; [|discriminate]. injection Hi as <-.
        apply le_S_n in Hlt.
        destruct (IH Hd i0 j0 eq_refl eq_refl Hlt) as (i' & j' & -> & -> & H3%le_n_S).
        exists (S i'), (S j'). auto.
Qed.
