(* VecDrain.v - C19, the caller's vector: previous contents untouched, everything taken appended in
   order, the count returned is the number appended, no usize underflow - for every well-formed vector
   (`vec_ok`), every growth policy of the allocator that gives at least what is asked for (`grows_enough`)
   and every channel state. *)
From KV Require Import Atomic Vec.
From KV.proofs Require Import Assoc Inv Fifo Drain.

Definition grows_enough (grow : N -> N -> N) : Prop := forall cap need, (need <= grow cap need)%N.

Lemma firstn_length_app {A} (l r : list A) : firstn (length l) (l ++ r) = l.
Proof. induction l; simpl; congruence. Qed.

Lemma skipn_length_app {A} (l r : list A) : skipn (length l) (l ++ r) = r.
Proof. induction l; simpl; congruence. Qed.

Lemma csub_le a b : (b <= a)%N -> csub a b = Some (a - b)%N.
Proof. intros H. unfold csub. destruct (N.ltb_spec a b); [lia|reflexivity]. Qed.

(* the contents do not depend on the capacity or on how the allocator grows it *)
Lemma reserve_items grow v n : v_items (v_reserve grow v n) = v_items v.
Proof. unfold v_reserve. destruct (N.leb _ _); reflexivity. Qed.

Lemma pushes_items grow xs : forall v, v_items (fold_left (v_push grow) xs v) = v_items v ++ xs.
Proof.
  induction xs as [|x xs IH]; intros v; cbn [fold_left].
  - symmetry. apply app_nil_r.
  - rewrite IH. cbn [v_push v_items]. rewrite <- app_assoc. reflexivity.
Qed.

(* the capacity stays sufficient under every growth policy that gives at least what is asked for *)
Lemma reserve_ok grow v n :
  grows_enough grow -> vec_ok v ->
  vec_ok (v_reserve grow v n) /\ (len (v_items v) + n <= v_cap (v_reserve grow v n))%N.
Proof.
  intros Hg Hok. unfold v_reserve, vec_ok in *.
  destruct (N.leb_spec (len (v_items v) + n) (v_cap v)) as [E|E]; cbn [v_items v_cap]; [auto|].
  pose proof (Hg (v_cap v) (len (v_items v) + n)%N). lia.
Qed.

Lemma push_ok grow v x : grows_enough grow -> vec_ok (v_push grow v x).
Proof.
  intros Hg. unfold v_push, vec_ok. cbn [v_items v_cap]. rewrite len_app. change (len [x]) with 1%N.
  destruct (N.ltb_spec (len (v_items v)) (v_cap v)) as [E|E]; [lia|].
  pose proof (Hg (v_cap v) (len (v_items v) + 1)%N). lia.
Qed.

Lemma pushes_ok grow xs : grows_enough grow -> forall v, vec_ok v -> vec_ok (fold_left (v_push grow) xs v).
Proof. intros Hg. induction xs as [|x xs IH]; intros v Hok; cbn [fold_left]; auto using push_ok. Qed.

(* a push into spare capacity does not touch the allocation *)
Lemma push_keeps_cap grow v x :
  (len (v_items v) < v_cap v)%N -> v_cap (v_push grow v x) = v_cap v.
Proof.
  intros H. unfold v_push. cbn [v_cap]. destruct (N.ltb_spec (len (v_items v)) (v_cap v)); [reflexivity|lia].
Qed.

Theorem drain_into_vec_spec grow v required taken :
  grows_enough grow -> vec_ok v ->
  exists v',
    drain_into_vec grow v required taken = Some (v', required) /\
    v_items v' = v_items v ++ taken /\ vec_ok v'.
Proof.
  intros Hg Hok. unfold drain_into_vec. rewrite (csub_le _ _ Hok).
  destruct (N.ltb_spec (v_cap v - len (v_items v)) required) as [R|R].
  - rewrite csub_le by lia. eexists. split; [reflexivity|].
    rewrite pushes_items, reserve_items. split; [reflexivity|].
    apply pushes_ok; [assumption|]. apply reserve_ok; assumption.
  - eexists. split; [reflexivity|]. rewrite pushes_items. split; [reflexivity|].
    apply pushes_ok; assumption.
Qed.

(* channel and vector together: one drain_into call on any reachable configuration, any vector *)
Theorem drain_into_whole grow a h v :
  grows_enough grow -> vec_ok v ->
  Inv a -> is_side a h SRecv = true -> recv_count (ch a) <> 0%N ->
  exists a' ws n ys v',
    step_drain a h = (a', mkOut (RDrain n ys) [] ws []) /\
    drain_into_vec grow v n ys = Some (v', n) /\
    ys = pending a /\
    v_items v' = v_items v ++ pending a /\
    (len (v_items v') = len (v_items v) + n)%N /\
    firstn (length (v_items v)) (v_items v') = v_items v /\
    pending a' = [] /\ vec_ok v'.
Proof.
  intros Hg Hok HI Hs Hr.
  destruct (drain_spec a h HI Hs Hr) as (a' & ws & Hstep & Hp & _).
  destruct (drain_into_vec_spec grow v (len (pending a)) (pending a) Hg Hok) as (v' & Hd & Hi & Hok').
  eexists _, _, _, _, _. split; [exact Hstep|]. split; [exact Hd|]. rewrite Hi.
  repeat split; auto using len_app, firstn_length_app.
Qed.

Lemma grow_amortised_enough : grows_enough grow_amortised.
Proof. intros cap need. unfold grow_amortised. lia. Qed.

(* what the harness observes on the model is exactly (required, taken, intact) *)
Theorem drain_observed_spec prev spare required taken :
  drain_observed prev spare required taken = Some (required, taken, true).
Proof.
  unfold drain_observed.
  assert (Hok : vec_ok (mkVec prev (len prev + spare))) by (unfold vec_ok; cbn [v_items v_cap]; lia).
  destruct (drain_into_vec_spec grow_amortised _ required taken grow_amortised_enough Hok) as (v' & -> & Hi & _).
  cbn [v_items] in Hi. rewrite Hi, skipn_length_app, firstn_length_app.
  destruct (list_eq_dec N.eq_dec prev prev) as [_|N]; [reflexivity|congruence].
Qed.

(* a closed channel: the vector is not touched at all (the function returns before using it) *)
Theorem drain_into_closed_keeps_vector a h :
  is_side a h SRecv = true -> recv_count (ch a) = 0%N ->
  step_drain a h = (a, out_of (RErr EClosed)).
Proof. intros Hs R. unfold step_drain. rewrite Hs, R. reflexivity. Qed.

(* non-vacuity, and an observation about the code: the argument given to `reserve` is not the
   room that is missing (it is `len + required - remaining`, `reserve` wants `required - remaining`
   counted from `len`), so with len = 0, capacity 2 and five values to take the hint asks for
   capacity 3 and the pushes grow the vector again; with len = capacity = 4 and one value it asks
   for capacity 9.  The contents and the count are right either way (theorem above): this is
   an allocation quirk, not a violation of C19. *)
Definition grow_exact (cap need : N) : N := need.

Example drain_vec_example :
  (drain_into_vec grow_exact (mkVec [200; 201] 3) 3 [1; 2; 3]
  = Some (mkVec [200; 201; 1; 2; 3] 6, 3))%N.
Proof. vm_compute. reflexivity. Qed.

Example reserve_hint_under_reserves :
  (v_cap (v_reserve grow_exact (mkVec [] 2) (0 + 5 - 2)) = 3)%N.
Proof. vm_compute. reflexivity. Qed.

Example reserve_hint_over_reserves :
  (v_cap (v_reserve grow_exact (mkVec [7; 7; 7; 7] 4) (4 + 1 - 0)) = 9)%N.
Proof. vm_compute. reflexivity. Qed.
