(* ShapeSignal.v - see ShapeBase.v *)
From KV Require Import Mem Expected.
From KV.gen Require Import Gen_Skel.
From KV.proofs Require Import ShapeBase.

Lemma signal_shape_ok :
  skel_diff ["signal."] (strip_table protocol_skeletons) (strip_table expected_protocol_skeletons) = [].
Proof. vm_compute. reflexivity. Qed.
