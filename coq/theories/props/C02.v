(* C02 - FIFO: messages are delivered in the order the channel accepted them.
   `entered_run`: the values in the order their sends entered the channel (buffered, handed to
   a waiting receiver, or registered as a blocked / pending sender); `taken_run`: the values in
   the order they left it toward a receiver (returned by a receive / try / poll / drain step, or
   written into a waiting receiver's slot by the sending step); `pending`: buffer, then blocked
   senders in wait-list order.  A value handed to a waiting receiver is taken in the step of its
   send, i.e. inside that receive's call interval, so order of taking is the order the property
   speaks of (no receive that obtains the later value completes before one that obtains the
   earlier value begins). *)
From KV Require Import Atomic.
From KV.proofs Require Import Inv Fifo.

(* any execution (any number of senders, receivers, futures, streams, timeouts and cancellations
   from the middle of the wait list, drains, closes): taken ++ still-pending is an
   order-preserving subsequence of entered *)
Theorem c02_taken_then_pending_is_a_subsequence_of_entered : forall b cap ls,
  Subseq (taken_run (init b cap) ls ++ pending (fst (arun (init b cap) ls))) (entered_run (init b cap) ls).
Proof. exact fifo. Qed.

(* in the property's words: with distinct values, if x was taken before y then x entered before y *)
Theorem c02_no_overtaking : forall b cap ls x y i j,
  NoDup (entered_run (init b cap) ls) ->
  index_of x (taken_run (init b cap) ls ++ pending (fst (arun (init b cap) ls))) = Some i ->
  index_of y (taken_run (init b cap) ls ++ pending (fst (arun (init b cap) ls))) = Some j ->
  i < j ->
  exists i' j', index_of x (entered_run (init b cap) ls) = Some i' /\
                index_of y (entered_run (init b cap) ls) = Some j' /\ i' < j'.
Proof. intros b cap ls x y i j Hd. apply subseq_order; [exact Hd|apply fifo]. Qed.

(* one step: the sequence only loses elements, grows at its end, or is consumed from its front *)
Theorem c02_step : forall a l, Inv a -> fifo_ok a l.
Proof. exact astep_fifo. Qed.

Print Assumptions c02_taken_then_pending_is_a_subsequence_of_entered.
Print Assumptions c02_no_overtaking.
Print Assumptions c02_step.

(* non-vacuity: buffer + three pending senders, the middle one cancelled, refill, drain *)
Example c02_witness :
  let ls := [LTrySend 0 1; LMkSend 5 0 2; LPoll 5 0; LMkSend 6 0 3; LPoll 6 0; LMkSend 7 0 4; LPoll 7 0;
             LDropF 6; LTryRecv 1; LDrain 1]%N in
  entered_run (init true 1) ls = [1; 2; 3; 4]%N /\ taken_run (init true 1) ls = [1; 2; 4]%N.
Proof. vm_compute. auto. Qed.
