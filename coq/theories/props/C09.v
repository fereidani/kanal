(* C09 - sync and async handles are interchangeable views of one channel.
   In the model a handle has a side and no flavour: a sync and an async handle of the same side
   are the same object, and to_sync / to_async / as_sync / as_async are the identity on the
   handle table (no label).  Waiters do have a kind (sync call, timed call, future, stream), one
   wait list holds them all, and `wake_of` dispatches on the waiter's own kind.  Hence every
   guarantee below quantifies over arbitrary mixtures of kinds on both sides.  That the real
   crate's two flavours behave as this one object is what H1 checks (every call is issued through
   the sync or the async view of the handle alternately, clones alternate flavours and convert in
   place) and what H2 checks (futures against blocked threads in both directions, cross-flavour
   clones under contention).  The layout claim behind `transmute` is rustc's size check plus
   these runs, not a theorem. *)
From KV Require Import Atomic Sig.
From KV.proofs Require Import Inv StepInv Ledger Fifo Closed SigProof.

(* delivery, ownership, ordering and the state invariant hold for every label, whatever the
   kinds of the waiters involved *)
Theorem c09_guarantees_hold_for_any_mixture : forall a l,
  Inv a -> Inv (fst (astep a l)) /\ conserves a l /\ fifo_ok a l.
Proof. intros a l HI. split; [apply astep_inv|split; [apply astep_conserves|apply astep_fifo]]; exact HI. Qed.

(* the hand-off protocol is safe for a sync, a timed and an async owner alike, against a peer of
   any kind: a parked thread released by an async peer, a pending future woken by a sync peer *)
Theorem c09_handoff_safe_for_every_pairing :
  forall i s, In i sinits -> reach (snext actual_ords) i s -> safe s = true.
Proof. exact signal_protocol_safe. Qed.

(* cloning (through either flavour) adds exactly one handle of the same side; counts follow *)
Theorem c09_clone_is_flavour_blind : forall b cap ls,
  let a := fst (arun (init b cap) ls) in
  (send_count (ch a) = count_side SSend (handles a) /\ recv_count (ch a) = count_side SRecv (handles a)) \/ closed a.
Proof. exact reachable_counts. Qed.

Print Assumptions c09_guarantees_hold_for_any_mixture.
Print Assumptions c09_handoff_safe_for_every_pairing.
Print Assumptions c09_clone_is_flavour_blind.

(* non-vacuity: a blocked sync sender released by a future's poll, and a pending future woken by a sync send *)
Example c09_witness :
  let ls := [LSend 5 0 1; LMkRecv 6 1; LPoll 6 0; LComplete 5; LMkRecv 7 1; LPoll 7 2; LSend 8 0 3; LPoll 7 2]%N in
  map (fun o => (r_res o, r_wakes o)) (snd (arun (init true 0) ls)) =
  [(RBlocked, []); (RUnit, []); (RReadyOkV 1, []); (ROk, []); (RUnit, []); (RPending, []); (ROk, [2]); (RReadyOkV 3, [])]%N.
Proof. vm_compute. reflexivity. Qed.
