(* C03 - atomicity: concurrent results are explainable by an atomic channel.  PARTIAL.
   The full statement is a refinement "every fine-grained execution of the code has the results
   of some operation-level interleaving of Atomic.astep".  It is not mechanised as one theorem
   (it needs a whole-system fine-grained model and a commutation argument for polls that observe
   a claimed, not yet finished signal).  Mechanised are these ingredients:
     (1) every entry point performs its state change in ONE critical section of the channel lock per
         phase (registration; cancellation after a timeout), never waits under the lock and never
         touches the protected data outside it: checked, with a proved checker, on the lock-discipline
         automata regenerated from the current source (LockDiscipline.v);
     (2) critical sections exclude each other and are ordered (C17, Mutex.v);
     (3) work done outside the lock touches only the private slot of a waiter that was taken
         off the list under the lock, by exactly one peer, race-free (C07, Sig.v);
     (4) composition of (2): any fine-grained interleaving of lock events, micro-operations on the
         protected data inside critical sections and private steps has exactly the final data and
         results of the execution in which every critical section runs atomically, in program order
         (Reduce.v, for any number of threads, any data and any micro-operations);
     (5) (4) instantiated with the atomic channel (AtomicReduce.v): threads that each run
         lock ; one Atomic.astep label ; unlock, interleaved lock event by lock event, end in the
         configuration and with the per-thread outputs of Atomic.arun on the labels in unlock order;
   and what a critical section does to the logical state is Atomic.astep (H1 correspondence).
   The composition is validated on every run by H2: the results of every scheduled execution of
   the real crate are searched for in the set of operation-level interleavings of Atomic.astep. *)
From KV Require Import Mutex Sig.
From KV Require Import Reduce.
From KV Require Import Atomic.
From KV.proofs Require Import LockDiscipline MutexProof SigProof ReduceProof AtomicReduce.
From Coq Require Import List.

(* on the lock-discipline automata of the current source: in no execution of any entry point is the lock taken
   while held, the protected data used without it, a signal waited for under it, a return made with it - and
   between two waits a call has at most one critical section *)
Theorem c03_partial_one_critical_section_per_entry_point : undisciplined = [].
Proof. exact lock_discipline_holds. Qed.

Theorem c03_partial_no_execution_violates_the_lock_discipline : forall f a l b c,
  In f Gen_Lock.lock_automata -> ld_run (snd f) a c -> (In (a, l, b) (snd f) -> violates l c = false) /\ snd c <= 1.
Proof. exact no_execution_violates_the_discipline. Qed.

Theorem c03_partial_critical_sections_exclude_each_other : forall o_s o_u tr s t1 t2,
  mrun o_s o_u minit tr = Some s -> m_pc s t1 = MHold -> m_pc s t2 = MHold -> t1 = t2.
Proof. exact mutual_exclusion. Qed.

Theorem c03_partial_outside_the_lock_only_the_claimed_signal :
  forall i s, In i sinits -> reach (snext actual_ords) i s -> safe s = true.
Proof. exact signal_protocol_safe. Qed.

Theorem c03_partial_critical_sections_are_atomic :
  forall (S L O : Type) (exec : O -> S -> L -> S * L) (o_s o_u : ordering) sh loc tr s',
  frun S L O exec o_s o_u (finit S L sh loc) tr = Some s' -> lock_free (f_m _ _ s') ->
  let c' := crun S L O exec (cinit S L sh loc) (ser L O o_s o_u minit [] tr) in
  c_sh _ _ c' = f_sh _ _ s' /\ forall u, c_loc _ _ c' u = f_loc _ _ s' u.
Proof. exact critical_sections_are_atomic. Qed.

Theorem c03_partial_serialisation_keeps_program_order :
  forall (S L O : Type) (exec : O -> S -> L -> S * L) (o_s o_u : ordering) sh loc tr s',
  frun S L O exec o_s o_u (finit S L sh loc) tr = Some s' -> lock_free (f_m _ _ s') ->
  forall t, cproj L O t (ser L O o_s o_u minit [] tr) = proj L O t tr.
Proof. exact serialisation_keeps_program_order. Qed.

(* the statement of C03 at the granularity of critical sections, for the atomic channel itself *)
Theorem c03_partial_lock_level_executions_are_atomic_runs : forall o_s o_u a0 tr s',
  (forall t e, In (t, e) tr -> forall g, e <> FLocal _ _ g) ->
  frun aconf (list out) label aexec o_s o_u (finit _ _ a0 (fun _ => [])) tr = Some s' ->
  lock_free (f_m _ _ s') ->
  let order := tagged (ser (list out) label o_s o_u minit [] tr) in
  f_sh _ _ s' = fst (arun a0 (map snd order)) /\
  forall t, f_loc _ _ s' t = outs_of t a0 order.
Proof. exact lock_level_executions_are_atomic_runs. Qed.
Print Assumptions c03_partial_one_critical_section_per_entry_point.
Print Assumptions c03_partial_no_execution_violates_the_lock_discipline.
Print Assumptions c03_partial_critical_sections_exclude_each_other.
Print Assumptions c03_partial_outside_the_lock_only_the_claimed_signal.

Example c03_witness :
  fn_ok ("two critical sections in one phase", [(0, "acquire", 1); (1, "release", 2); (2, "acquire", 3); (3, "release", 4); (4, "ret[]", 5)])%string = false
  /\ fn_ok ("registration, wait, cancellation", [(0, "acquire", 1); (1, "cs", 2); (2, "release", 3); (3, "wait", 4); (4, "acquire", 5); (5, "release", 6); (6, "ret[]", 7)])%string = true.
Proof. vm_compute. split; reflexivity. Qed.
Print Assumptions c03_partial_critical_sections_are_atomic.
Print Assumptions c03_partial_serialisation_keeps_program_order.

(* a queue as protected data, the last result as local data; thread 2 fails an attempt and pauses while
   thread 1 is between its two micro-operations; the serialisation emits thread 2's private step at once,
   then thread 1's section, then thread 2's *)
Inductive qop := QPush (x : N) | QPop.
Definition qexec (o : qop) (q : list N) (l : N) : list N * N :=
  match o with QPush x => (q ++ [x], l) | QPop => match q with [] => ([], 0%N) | x :: r => (r, x) end end.
Example c03_reduce_witness :
  let tr := [(1, FLock N qop (MLockCas true)); (1, FOp N qop (QPush 7)); (2, FLock N qop (MLockCas false));
             (2, FLock N qop MPause); (2, FLocal N qop (fun _ => 9)); (1, FOp N qop (QPush 8)); (1, FLock N qop MUnlock);
             (2, FLock N qop (MLockCas true)); (2, FOp N qop QPop); (2, FLock N qop MUnlock)]%N in
  option_map (fun s => (f_sh _ _ s, f_loc _ _ s 1, f_loc _ _ s 2)%N)
     (frun (list N) N qop qexec Acquire Release (finit (list N) N [] (fun _ => 0%N)) tr) = Some ([8], 0, 7)%N
  /\ map fst (ser N qop Acquire Release minit [] tr) = [2; 1; 2]%N
  /\ (let c := crun (list N) N qop qexec (cinit (list N) N [] (fun _ => 0%N)) (ser N qop Acquire Release minit [] tr) in
      (c_sh _ _ c, c_loc _ _ c 1, c_loc _ _ c 2)%N) = ([8], 0, 7)%N.
Proof. vm_compute. repeat split. Qed.
Print Assumptions c03_partial_lock_level_executions_are_atomic_runs.

(* two threads on a channel of capacity 1: thread 2 fails an attempt while thread 1 is inside; the results are those
   of the atomic run try_send ; try_recv *)
Example c03_lock_level_witness :
  let tr := [(1, FLock (list out) label (MLockCas true)); (2, FLock _ _ (MLockCas false)); (1, FOp _ _ (LTrySend 0 5));
             (1, FLock _ _ MUnlock); (2, FLock _ _ MPause); (2, FLock _ _ (MLockCas true)); (2, FOp _ _ (LTryRecv 1));
             (2, FLock _ _ MUnlock)]%N in
  option_map (fun s => (map r_res (f_loc _ _ s 1), map r_res (f_loc _ _ s 2))%N)
    (frun aconf (list out) label aexec Acquire Release (finit _ _ (init true 1) (fun _ => [])) tr)
  = Some ([ROkB true], [ROkSome 5])%N.
Proof. vm_compute. reflexivity. Qed.
