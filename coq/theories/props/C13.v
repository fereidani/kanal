(* C13 - timed operations are all-or-nothing and respect their deadline.
   Atomic half: a timed call that has to wait registers like a blocking one; then exactly one of
   LComplete (the peer finished it: success, or the closed error) and LTimeoutFire happens.
   Deadline half: Deadline.v - the clock readings of one timed call (the last two theorems); Sig.v -
   the owner of a timed wait reaches the cancel only through the final load that follows the
   deadline (`EDeadline`), and when the cancel finds the entry gone it waits for the peer and
   reports the peer's verdict; H2 runs the timed calls under a virtual clock advanced at every
   point and checks that Timeout is returned only after a clock reading >= deadline. *)
From KV Require Import Atomic Sig.
From KV Require Import Deadline.
From KV.proofs Require Import Inv Cases Ledger SigProof DeadlineProof.

(* timeout: nothing moved - the value is destroyed or handed back in that step, the entry is gone *)
Theorem c13_timeout_leaves_nothing_behind : forall a k o,
  Inv a -> lookup k (objs a) = Some o -> kind_timed (o_kind o) = true -> o_sig o = SLocked ->
  let '(a', out) := step_timeout a k in
  r_res out = RErr ETimeout /\ lookup k (objs a') = None /\ ~ In k (wait_list (ch a')) /\
  wait_list (ch a') = remove_first k (wait_list (ch a)) /\
  r_drops out ++ r_back out = oval o /\ res_received (r_res out) = [].
Proof.
  intros a k o HI Ho Hkt Hsig. destruct (step_timeout_leaves a k o HI Ho Hkt Hsig) as [(Ea & _ & Hv) Hr].
  destruct (step_timeout a k) as [a' out]. simpl in *. subst a'. rewrite Hr in *.
  repeat split; auto; apply (forget_gone a k HI).
Qed.

(* if a peer got there first the timeout does not fire: the caller reports the peer's verdict *)
Theorem c13_peer_wins_the_race : forall a k o,
  lookup k (objs a) = Some o -> o_sig o <> SLocked -> step_timeout a k = invalid a.
Proof.
  intros a k o Ho Hs. unfold step_timeout. rewrite Ho. destruct (negb _); [reflexivity|].
  destruct (o_sig o); [contradiction|reflexivity..].
Qed.

(* whatever happens the value is accounted for exactly once (conservation holds for every label) *)
Theorem c13_all_or_nothing : forall a l, Inv a -> conserves a l.
Proof. exact astep_conserves. Qed.

(* protocol: a timed owner's outcome agrees with the peer's (success iff the peer delivered) *)
Theorem c13_both_sides_agree : forall i s, In i sinits -> reach (snext actual_ords) i s -> safe s = true.
Proof. exact signal_protocol_safe. Qed.

(* the deadline is the first clock reading plus the duration, and Timeout is returned only after
   a reading at or past it; such a reading ends the waiting (second theorem; that only such a reading
   ends it, unless a peer does, is DeadlineProof.loop_exit) *)
Theorem c13_timeout_never_before_the_deadline : forall dur re tr u,
  trun dur re TStart tr = Some (TTimeout u) ->
  exists t0 rest v, readings tr = t0 :: rest /\ u = (t0 + dur)%N /\ In v (readings tr) /\ (t0 + dur <= v)%N.
Proof. intros dur re tr u. exact (timeout_owes dur re u tr TStart). Qed.

Theorem c13_waiting_ends_once_the_deadline_passed : forall u v dur re,
  (u <= v)%N -> tstep dur re (TWait u) (Now v) = Some (TExpired u).
Proof. intros u v dur re H. simpl. destruct (N.ltb_spec v u); [lia|reflexivity]. Qed.

Print Assumptions c13_timeout_never_before_the_deadline.
Print Assumptions c13_waiting_ends_once_the_deadline_passed.
Print Assumptions c13_timeout_leaves_nothing_behind.
Print Assumptions c13_peer_wins_the_race.
Print Assumptions c13_all_or_nothing.
Print Assumptions c13_both_sides_agree.

Example c13_witness :
  let ls := [LSendTimeout 5 0 7; LRecvTimeout 6 1 false; LComplete 5; LRecvTimeout 8 1 false; LTimeoutFire 8;
             LSendOptTimeout 9 0 (Some 10); LTimeoutFire 9]%N in
  map (fun o => (r_res o, r_drops o, r_back o)) (snd (arun (init true 0) ls)) =
  [(RBlocked, [], []); (ROkV 7, [], []); (ROk, [], []); (RBlocked, [], []); (RErr ETimeout, [], []);
   (RBlocked, [], []); (RErr ETimeout, [], [10])]%N.
Proof. vm_compute. reflexivity. Qed.
