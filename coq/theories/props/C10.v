(* C10 - close is total, immediate and happens once *)
From KV Require Import Atomic.
From KV.proofs Require Import Assoc Inv Cases Closed.

(* the first close succeeds; when it returns both counts are 0, the buffer is empty and its
   values were destroyed in that step, the wait list is empty and every waiter that was listed
   is released with the terminated state *)
Theorem c10_first_close : forall a h,
  Inv a -> handle_side a h <> None -> ~ closed a ->
  let '(a', o) := astep a (LClose h) in
  r_res o = ROk /\ r_drops o = queue (ch a) /\ closed a' /\ queue (ch a') = [] /\ wait_list (ch a') = [] /\
  (forall k ob, In k (wait_list (ch a)) -> lookup k (objs a) = Some ob ->
                exists ob', lookup k (objs a') = Some ob' /\ o_sig ob' = STerm).
Proof.
  intros a h HI Hh Hn. simpl. unfold step_close. destruct (handle_side a h); [|congruence].
  assert (E : N.eqb (recv_count (ch a)) 0 && N.eqb (send_count (ch a)) 0 = false).
  { apply Bool.not_true_is_false. intros [R%N.eqb_eq S%N.eqb_eq]%andb_prop. apply Hn. split; assumption. }
  rewrite E. pose proof (terminate_signals_fst (with_ch a (set_counts (ch a) 0 0))) as T.
  destruct (terminate_signals _) as [a2 ws]. cbn [fst] in T. subst a2. cbn.
  repeat split.
  (* every listed waiter is terminated *)
  intros k ob Hin%mem_in Ho. rewrite term_all_lookup, Hin, Ho. eexists. split; reflexivity.
Qed.

Theorem c10_later_close_fails : forall a h,
  closed a -> handle_side a h <> None -> astep a (LClose h) = (a, out_of (RErr EClosed)).
Proof.
  intros a h [S R] Hh. simpl. unfold step_close. destruct (handle_side a h); [|congruence].
  rewrite S, R. reflexivity.
Qed.

Theorem c10_closed_for_ever : forall ls a, Inv a -> closed a -> closed (fst (arun a ls)).
Proof. exact closed_forever_run. Qed.

(* operations begun after close fail with the closed error, change nothing, deliver nothing,
   and hand back or destroy their value *)
Theorem c10_send_after_close : forall a k h x kd,
  closed a -> is_side a h SSend = true -> fresh a k = true ->
  fst (step_send_like a k h x kd) = a /\ r_res (snd (step_send_like a k h x kd)) = RErr EClosed /\
  r_drops (snd (step_send_like a k h x kd)) ++ r_back (snd (step_send_like a k h x kd)) = [x].
Proof.
  intros a k h x kd Hc Hs Hf. unfold step_send_like. rewrite Hs, Hf, (cs_send_closed a x Hc).
  destruct kd; auto.
Qed.

Theorem c10_try_send_after_close : forall a h x opt,
  closed a -> is_side a h SSend = true ->
  fst (step_try_send a h x opt) = a /\ r_res (snd (step_try_send a h x opt)) = RErr EClosed /\
  r_drops (snd (step_try_send a h x opt)) ++ r_back (snd (step_try_send a h x opt)) = [x].
Proof.
  intros a h x opt Hc Hs. unfold step_try_send. rewrite Hs, (cs_send_closed a x Hc). destruct opt; auto.
Qed.

Theorem c10_recv_after_close : forall a k h timed early,
  closed a -> is_side a h SRecv = true -> fresh a k = true ->
  step_recv_like a k h timed early = (a, out_of (RErr EClosed)).
Proof. intros a k h timed early Hc Hs Hf. unfold step_recv_like. rewrite Hs, Hf, (cs_recv_closed a Hc). reflexivity. Qed.

Theorem c10_try_recv_after_close : forall a h,
  closed a -> is_side a h SRecv = true -> step_try_recv a h = (a, out_of (RErr EClosed)).
Proof. intros a h Hc Hs. unfold step_try_recv. rewrite Hs, (cs_recv_closed a Hc). reflexivity. Qed.

Theorem c10_drain_after_close : forall a h,
  closed a -> is_side a h SRecv = true -> step_drain a h = (a, out_of (RErr EClosed)).
Proof. intros a h [S R] Hs. unfold step_drain. rewrite Hs, R. reflexivity. Qed.

Theorem c10_async_send_after_close : forall a f o w x,
  closed a -> o_fst o = FZero -> o_val o = Some x ->
  poll_send a f o w = (put a f (set_fst (set_val o None) FDone), PReadyErr EClosed, [x], []).
Proof. intros a f o w x Hc Hf Hv. unfold poll_send. rewrite Hf, Hv, (cs_send_closed a x Hc). reflexivity. Qed.

Theorem c10_async_recv_after_close : forall a f o w,
  closed a -> o_fst o = FZero ->
  poll_recv a f o w = (put a f (set_fst o FDone), PReadyErr EClosed, [], []).
Proof. intros a f o w Hc Hf. unfold poll_recv, poll_recv_zero. rewrite Hf, (cs_recv_closed a Hc). reflexivity. Qed.

Print Assumptions c10_first_close.
Print Assumptions c10_later_close_fails.
Print Assumptions c10_closed_for_ever.
Print Assumptions c10_send_after_close.
Print Assumptions c10_recv_after_close.
Print Assumptions c10_async_send_after_close.

Example c10_witness :
  let ls := [LTrySend 0 7; LMkSend 5 0 8; LPoll 5 2; LClose 1; LClose 0; LPoll 5 2; LTrySend 0 9; LTryRecv 1]%N in
  map (fun o => (r_res o, r_drops o, r_wakes o)) (snd (arun (init true 1) ls)) =
  [(ROkB true, [], []); (RUnit, [], []); (RPending, [], []); (ROk, [7], [2]); (RErr EClosed, [], []);
   (RReadyErr EClosed, [8], []); (RErr EClosed, [9], []); (RErr EClosed, [], [])]%N.
Proof. vm_compute. reflexivity. Qed.
