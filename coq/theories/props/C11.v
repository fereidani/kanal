(* C11 - disconnect happens exactly when the last handle of a side goes *)
From KV Require Import Atomic.
From KV.proofs Require Import Inv Cases StepInv Closed.

(* on an open channel each count is 0 exactly when that side has no live handle *)
Theorem c11_count_zero_iff_no_handle : forall a,
  Inv a -> ~ closed a ->
  (send_count (ch a) = 0%N <-> count_side SSend (handles a) = 0%N) /\
  (recv_count (ch a) = 0%N <-> count_side SRecv (handles a) = 0%N).
Proof. intros a HI Hn. destruct (counts_live a HI Hn) as [-> ->]. tauto. Qed.

(* a receive reports the send-side disconnect only when no sender handle is live AND the buffer is drained *)
Theorem c11_send_closed_only_after_last_sender_and_drained : forall a k h timed early,
  Inv a -> ~ closed a -> is_side a h SRecv = true -> fresh a k = true ->
  r_res (snd (step_recv_like a k h timed early)) = RErr ESendClosed ->
  count_side SSend (handles a) = 0%N /\ queue (ch a) = [].
Proof.
  intros a k h timed early HI Hn Hs Hf. unfold step_recv_like. rewrite Hs, Hf. simpl.
  pose proof (recv_case_inv a HI) as H.
  (* only a critical section that found nothing (RCNone) leads to this error: the buffer was empty (Hq) *)
  destruct (cs_recv a) as [|v a1 ws|a1|]; try discriminate.
  destruct H as (_ & -> & Hq). destruct (timed && early); [discriminate|]. simpl.
  destruct (N.eqb_spec (send_count (ch a)) 0) as [E0|]; [|discriminate].
  intros _. destruct (counts_live a HI Hn) as [Es _]. split; congruence.
Qed.

(* a send reports the receive-side disconnect exactly when no receiver handle is live *)
Theorem c11_receive_closed_iff_no_receiver : forall a k h x kd,
  Inv a -> ~ closed a -> is_side a h SSend = true -> fresh a k = true ->
  (r_res (snd (step_send_like a k h x kd)) = RErr ERecvClosed <-> count_side SRecv (handles a) = 0%N).
Proof.
  intros a k h x kd HI Hn Hs Hf. unfold step_send_like. rewrite Hs, Hf. simpl.
  destruct (counts_live a HI Hn) as [Es Er]. rewrite <- Er.
  destruct (cs_send_case a x HI) as [E0|k0 r0 o N0 F W Ho Hsd Hv|c1 N0 _ _|c1 N0 _ _].
  - (* sc_err: no receiver; and the error is not EClosed, the channel being open (Hn) *)
    split; [auto|intros _]. destruct (N.eqb_spec (send_count (ch a)) 0) as [S0|_]; [|destruct kd; reflexivity].
    exfalso. apply Hn. split; assumption.
  (* the other cases report no error, and there is a receiver (N0) *)
  - split; [discriminate|contradiction].
  - split; [discriminate|contradiction].
  - split; [discriminate|contradiction].
Qed.

(* blocked peers are released: whenever a side's count is 0 nobody is left in the wait list *)
Theorem c11_no_waiter_survives_disconnect : forall b cap ls,
  let a := fst (arun (init b cap) ls) in
  send_count (ch a) = 0%N \/ recv_count (ch a) = 0%N -> wait_list (ch a) = [].
Proof. intros b cap ls. pose proof (reachable_inv b cap ls) as (_ & _ & HC). apply (i_closed _ _ HC). Qed.

Print Assumptions c11_count_zero_iff_no_handle.
Print Assumptions c11_send_closed_only_after_last_sender_and_drained.
Print Assumptions c11_receive_closed_iff_no_receiver.
Print Assumptions c11_no_waiter_survives_disconnect.

Example c11_witness :
  let ls := [LTrySend 0 7; LClone 0 2; LDropH 0; LTryRecv 1; LMkRecv 5 1; LPoll 5 1; LDropH 2; LPoll 5 1; LTryRecv 1]%N in
  map (fun o => (r_res o, r_wakes o)) (snd (arun (init true 1) ls)) =
  [(ROkB true, []); (RUnit, []); (RUnit, []); (ROkSome 7, []); (RUnit, []); (RPending, []);
   (RUnit, [1]); (RReadyErr EClosed, []); (RErr ESendClosed, [])]%N.
Proof. vm_compute. reflexivity. Qed.
