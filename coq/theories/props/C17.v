(* C17 - the internal lock gives mutual exclusion, ordering and progress.
   Model: Mutex.v (any number of threads, every interleaving, any number of retries);
   tie to /repo: proofs/ShapeMutex.v, ShapeSites.v (mutex_shape_ok, atomic_sites_shape_ok: the shapes of
   mutex.rs and backoff.rs::spin_cond are the pinned ones), the orderings below are read
   from the regenerated gen/Gen_Sites.v, and H2 feeds every lock event of scheduled runs
   of the real crate to the extracted Mutex.mstep. *)
From KV Require Import Mutex Sig.
From KV.gen Require Import Gen_Sites.
From KV.proofs Require Import MutexProof ShapeBase ShapeMutex ShapeSites.

Open Scope string_scope.
(* the CAS of try_lock and the four CAS transitions of lock (first attempt, and the retries of the three phases of
   spin_cond, inlined): the weakest of them *)
Definition lock_cas_success : ordering :=
  ord_meet_all (site_ord atomic_sites "mutex.RawMutexLock.RawMutex.try_lock" 0 ::
                map (site_ord atomic_sites "mutex.RawMutexLock.RawMutex.lock") [0; 1; 2; 3]).
Definition unlock_store : ordering := site_ord atomic_sites "mutex.RawMutexLock.RawMutex.unlock" 0.

(* the orderings written in the current source are strong enough for the hand-over *)
Theorem c17_orderings_in_source_suffice : mutex_ords_ok lock_cas_success unlock_store = true.
Proof. vm_compute. reflexivity. Qed.

Theorem c17_source_shape_is_the_modelled_one :
  skel_diff ["mutex."; "backoff."] (strip_table Gen_Skel.protocol_skeletons) (strip_table Expected.expected_protocol_skeletons) = [] /\
  list_eqb shape_eqb (map site_shape atomic_sites) (map site_shape Expected.expected_atomic_sites) = true.
Proof. split; [exact mutex_shape_ok|exact atomic_sites_shape_ok]. Qed.

Theorem c17_mutual_exclusion : forall tr s t1 t2,
  mrun lock_cas_success unlock_store minit tr = Some s -> m_pc s t1 = MHold -> m_pc s t2 = MHold -> t1 = t2.
Proof. exact (mutual_exclusion lock_cas_success unlock_store). Qed.

(* release on unlock, acquire on lock: whoever is inside owns the protected data *)
Theorem c17_critical_sections_are_ordered : forall tr s t,
  mrun lock_cas_success unlock_store minit tr = Some s -> m_pc s t = MHold -> access_safe s t = true.
Proof. intros tr s t. exact (handover lock_cas_success unlock_store tr s t c17_orderings_in_source_suffice). Qed.

Theorem c17_try_lock_never_waits : forall s t ok s',
  mstep lock_cas_success unlock_store s t (MTryLock ok) = Some s' ->
  (ok = true /\ m_pc s' t = MHold) \/ (ok = false /\ m_pc s' t = MIdle /\ m_flag s = true).
Proof. exact (try_lock_never_waits lock_cas_success unlock_store). Qed.

Theorem c17_lock_returns_only_with_the_lock : forall s t e s',
  m_pc s t = MSpin -> mstep lock_cas_success unlock_store s t e = Some s' ->
  m_pc s' t = MSpin \/ (e = MLockCas true /\ m_pc s' t = MHold).
Proof. exact (lock_returns_only_with_the_lock lock_cas_success unlock_store). Qed.

Theorem c17_lock_succeeds_once_the_holder_left : forall tr s t,
  mrun lock_cas_success unlock_store minit tr = Some s -> (forall x, m_pc s x <> MHold) -> m_pc s t <> MHold ->
  (exists s', mstep lock_cas_success unlock_store s t (MLockCas true) = Some s' /\ m_pc s' t = MHold) /\
  mstep lock_cas_success unlock_store s t (MLockCas false) = None.
Proof. intros tr s t E Hfree _. exact (lock_succeeds_once_free lock_cas_success unlock_store tr s t E Hfree). Qed.

Print Assumptions c17_orderings_in_source_suffice.
Print Assumptions c17_source_shape_is_the_modelled_one.
Print Assumptions c17_mutual_exclusion.
Print Assumptions c17_critical_sections_are_ordered.
Print Assumptions c17_try_lock_never_waits.
Print Assumptions c17_lock_returns_only_with_the_lock.
Print Assumptions c17_lock_succeeds_once_the_holder_left.

(* non-vacuity: three threads contend; the orderings matter (a relaxed unlock loses the data) *)
Example c17_witness :
  exists s, mrun lock_cas_success unlock_store minit
              [(1, MLockCas true); (2, MLockCas false); (3, MTryLock false); (2, MPause); (1, MAccess); (1, MUnlock);
               (2, MLockCas true); (2, MAccess)]%N = Some s /\ m_pc s 2%N = MHold /\ access_safe s 2%N = true.
Proof. eexists. split; [vm_compute; reflexivity|]. split; reflexivity. Qed.
Example c17_relaxed_unlock_is_not_enough :
  exists tr s, mrun Acquire Relaxed minit tr = Some s /\ m_pc s 2%N = MHold /\ access_safe s 2%N = false.
Proof. exact relaxed_unlock_loses_the_data. Qed.
