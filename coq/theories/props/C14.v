(* C14 - non-blocking operations never wait and tell the truth *)
From KV Require Import Atomic Mutex.
From KV.proofs Require Import Assoc Inv Cases Ledger LedgerCor LockDiscipline MutexProof.

(* never wait for a peer: no try_* / drain_into entry point of the current source contains a wait,
   and the model's steps never register a waiter *)
Theorem c14_no_wait_in_the_source :
  forallb (fun fn => match has_event "wait"%string fn with Some false => true | _ => false end) nonblocking_fns = true.
Proof. exact nonblocking_never_wait. Qed.

Theorem c14_try_send_never_registers : forall a h x opt,
  Inv a -> keys (objs (fst (step_try_send a h x opt))) = keys (objs a) /\
           (forall k, In k (wait_list (ch (fst (step_try_send a h x opt)))) -> In k (wait_list (ch a))).
Proof.
  intros a h x opt HI. unfold step_try_send. destruct (negb _); [auto|].
  destruct (cs_send_case a x HI) as [E0|k r0 o N0 F W Ho Hs Hv|c1 N0 [-> _]%no_recv_eq Hl|c1 N0 [-> _]%no_recv_eq Hl];
    simpl; auto.
  (* sc_deliver: the receiver at the head of the list has been served *)
  split; [apply keys_update|]. intros k' Hk. rewrite W. right. exact Hk.
Qed.

Theorem c14_try_recv_never_registers : forall a h,
  Inv a -> keys (objs (fst (step_try_recv a h))) = keys (objs a) /\
           (forall k, In k (wait_list (ch (fst (step_try_recv a h)))) -> In k (wait_list (ch a))).
Proof.
  intros a h HI. unfold step_try_recv. destruct (negb _); [auto|].
  destruct (cs_recv_case a HI) as [E0|v q k r0 o y N0 Q F W Ho Hs Hv|v q c1 N0 Q [-> _]%no_send_eq
                                  |k r0 o y N0 Q F W Ho Hs Hv|c1 N0 Q [-> _]%no_send_eq]; simpl; auto.
  - (* rc_refill: the sender at the head of the list has been served *)
    split; [apply keys_update|]. intros k' Hk. rewrite W. right. exact Hk.
  - (* rc_direct: likewise *)
    split; [apply keys_update|]. intros k' Hk. rewrite W. right. exact Hk.
  - destruct (N.eqb _ 0); auto.
Qed.

(* tell the truth: refused => the value comes back and the channel is as it was (up to the lazy
   direction flag); accepted => the value is inside the channel or with a receiver *)
Theorem c14_refused_send_changes_nothing : forall a h x opt,
  Inv a -> r_res (snd (step_try_send a h x opt)) = ROkB false ->
  let a' := fst (step_try_send a h x opt) in
  queue (ch a') = queue (ch a) /\ wait_list (ch a') = wait_list (ch a) /\ objs a' = objs a /\
  handles a' = handles a /\ send_count (ch a') = send_count (ch a) /\ recv_count (ch a') = recv_count (ch a).
Proof.
  intros a h x opt HI. unfold step_try_send. destruct (negb _); [discriminate|].
  (* only a full channel answers Ok(false); its state is a with the flag cleared, every field asked for as it was *)
  destruct (cs_send_case a x HI) as [E0|k r0 o N0 F W Ho Hs Hv|c1 N0 _ _|c1 N0 [-> _]%no_recv_eq _]; simpl.
  - destruct opt; discriminate.
  - discriminate.
  - discriminate.
  - intros _. repeat split.
Qed.

Theorem c14_refused_send_returns_the_value : forall a h x opt,
  (exists e, r_res (snd (step_try_send a h x opt)) = RErr e) \/ r_res (snd (step_try_send a h x opt)) = ROkB false ->
  out_tags (snd (step_try_send a h x opt)) = [x] /\
  r_back (snd (step_try_send a h x opt)) = (if opt then [x] else []).
Proof. exact try_send_refused. Qed.

Theorem c14_accepted_send_keeps_the_value : forall a h x opt,
  r_res (snd (step_try_send a h x opt)) = ROkB true -> out_tags (snd (step_try_send a h x opt)) = [].
Proof. exact try_send_accepted. Qed.

(* realtime: one lock attempt, never the blocking acquisition; a taken lock means "not done" at once *)
Theorem c14_realtime_never_waits_for_the_lock :
  forallb (fun fn => match has_event "acquire"%string fn with Some false => true | _ => false end) realtime_fns = true /\
  (forall o_s o_u s t ok s', mstep o_s o_u s t (MTryLock ok) = Some s' ->
     (ok = true /\ m_pc s' t = MHold) \/ (ok = false /\ m_pc s' t = MIdle /\ m_flag s = true)).
Proof. split; [exact realtime_never_use_the_blocking_acquisition|exact try_lock_never_waits]. Qed.

Theorem c14_realtime_gives_up_when_busy : forall a h x,
  is_side a h SSend = true ->
  astep a (LTrySendRT h x true) = (a, mkOut (ROkB false) [x] [] []) /\
  astep a (LTrySendOptRT h (Some x) true) = (a, mkOut (ROkB false) [] [] [x]).
Proof. intros a h x Hs. simpl. rewrite Hs. auto. Qed.

Print Assumptions c14_no_wait_in_the_source.
Print Assumptions c14_try_send_never_registers.
Print Assumptions c14_try_recv_never_registers.
Print Assumptions c14_refused_send_changes_nothing.
Print Assumptions c14_refused_send_returns_the_value.
Print Assumptions c14_accepted_send_keeps_the_value.
Print Assumptions c14_realtime_never_waits_for_the_lock.
Print Assumptions c14_realtime_gives_up_when_busy.

Example c14_witness :
  let ls := [LTrySend 0 1; LTrySendOpt 0 (Some 2); LTrySendRT 0 3 true; LTryRecv 1; LTryRecvRT 1 true; LTryRecv 1]%N in
  map (fun o => (r_res o, r_drops o, r_back o)) (snd (arun (init true 1) ls)) =
  [(ROkB true, [], []); (ROkB false, [], [2]); (ROkB false, [3], []); (ROkSome 1, [], []); (ROkNone, [], []); (ROkNone, [], [])]%N.
Proof. vm_compute. reflexivity. Qed.
