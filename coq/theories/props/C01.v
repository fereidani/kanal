(* C01 - exactly-once delivery: no message lost, duplicated or invented.
   Statements over ALL executions (any label sequence: any number of handles,
   blocked callers, futures, streams; any capacity; bounded or not) of the
   Atomic model, which is tied to /repo by the H1 differential. *)
From KV Require Import Atomic.
From KV.proofs Require Import Ledger LedgerCor.

(* conservation: values offered = received + destroyed + handed back + still inside, as multisets *)
Theorem c01_conservation : forall b cap ls,
  let '(a, os) := arun (init b cap) ls in
  Permutation (offered_run (init b cap) ls)
              (outs_received os ++ outs_dropped os ++ outs_back os ++ held a).
Proof. exact ledger_conservation. Qed.

(* exactly once: with distinct offered values no value is received twice, received and
   destroyed, received and handed back, or received and still held; every received value
   was offered; every offered value is accounted for *)
Theorem c01_exactly_once : forall b cap ls,
  NoDup (offered_run (init b cap) ls) ->
  let '(a, os) := arun (init b cap) ls in
  NoDup (outs_received os ++ outs_dropped os ++ outs_back os ++ held a) /\
  (forall x, In x (outs_received os) -> In x (offered_run (init b cap) ls)) /\
  (forall x, In x (offered_run (init b cap) ls) ->
             In x (outs_received os) \/ In x (outs_dropped os) \/ In x (outs_back os) \/ In x (held a)).
Proof. exact exactly_once. Qed.

(* a send that reports failure has handed its value to nobody: it comes back / is destroyed in that step *)
Theorem c01_failed_send_keeps_value : forall a k h x kd e,
  r_res (snd (step_send_like a k h x kd)) = RErr e ->
  out_tags (snd (step_send_like a k h x kd)) = [x] /\ fst (step_send_like a k h x kd) = a.
Proof.
  intros a k h x kd e.
  unfold step_send_like. destruct (_ || _); [discriminate|].
  destruct (cs_send a x); [destruct kd; split; reflexivity|discriminate..].
Qed.

Print Assumptions c01_conservation.
Print Assumptions c01_exactly_once.
Print Assumptions c01_failed_send_keeps_value.

(* non-vacuity: a concrete execution with distinct tags, a hand-off, a buffered value and a drop *)
Example c01_witness :
  let ls := [LMkRecv 5 1; LPoll 5 0; LSend 6 0 11; LTrySend 0 12; LTrySend 0 13; LPoll 5 0; LClose 0]%N in
  NoDup (offered_run (init true 1) ls) /\
  outs_received (snd (arun (init true 1) ls)) = [11]%N /\
  outs_dropped (snd (arun (init true 1) ls)) = [13; 12]%N.
Proof. vm_compute. repeat split; repeat constructor; simpl; intuition discriminate. Qed.
