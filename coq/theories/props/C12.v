(* C12 - handle counts equal the number of live handles.
   Model note: counts are unbounded N; the code uses u32, so the statements are about
   executions with fewer than 2^32 live handles per side (mem::forget in a loop can exceed it).
   Conversions (to_sync/to_async/as_sync/as_async) are the identity on the model's handle
   table: the model has one handle object per Rust handle whatever its flavour. *)
From KV Require Import Atomic.
From KV.proofs Require Import Inv Frames Closed.

(* on every reachable configuration: counts = live handles per side, or the channel is closed (both 0) *)
Theorem c12_counts_equal_live_handles : forall b cap ls,
  let a := fst (arun (init b cap) ls) in
  (send_count (ch a) = count_side SSend (handles a) /\ recv_count (ch a) = count_side SRecv (handles a)) \/
  closed a.
Proof. exact reachable_counts. Qed.

(* once closed, no clone, drop or any other operation revives the channel *)
Theorem c12_closed_never_revives : forall ls a, Inv a -> closed a -> closed (fst (arun a ls)).
Proof. exact closed_forever_run. Qed.

(* counts, capacity and the handle table change only through clone / drop / close *)
Theorem c12_only_handle_operations_change_counts : forall a l,
  Inv a -> handle_label l = false ->
  meta (fst (astep a l)) = meta a /\ handles (fst (astep a l)) = handles a.
Proof. exact astep_meta. Qed.

Print Assumptions c12_counts_equal_live_handles.
Print Assumptions c12_closed_never_revives.
Print Assumptions c12_only_handle_operations_change_counts.

Example c12_witness :
  let ls := [LClone 0 2; LClone 1 3; LClone 2 4; LDropH 0; LObs 1 OSenderCount; LClose 3; LClone 2 5; LObs 5 OSenderCount]%N in
  map r_res (snd (arun (init true 2) ls)) =
  [RUnit; RUnit; RUnit; RUnit; RNum 2; ROk; RUnit; RNum 0]%N.
Proof. vm_compute. reflexivity. Qed.
