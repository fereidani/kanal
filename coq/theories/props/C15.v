(* C15 - dropping a future at any point is safe and leaves the channel consistent.
   Atomic half below.  The drop that races with a peer which has already claimed the future's
   signal is the protocol's APending -ECancel false-> ABlocking path: C07's theorem covers it
   (the owner ends the signal only after acquiring the peer's final store). *)
From KV Require Import Atomic Sig.
From KV.proofs Require Import Inv Cases StepInv Ledger SigProof.

(* at every stage (never polled, listed, finished by a peer, done): the drop returns, the future is
   gone from the object table and from the wait list, the other waiters keep their order, exactly
   the value the future still owned (at most one) is destroyed, nothing is delivered *)
Theorem c15_drop_at_any_stage : forall a f o,
  Inv a -> lookup f (objs a) = Some o -> kind_async (o_kind o) = true ->
  let '(a', out) := step_drop_fut a f in
  r_res out = RUnit /\ lookup f (objs a') = None /\ ~ In f (wait_list (ch a')) /\
  wait_list (ch a') = remove_first f (wait_list (ch a)) /\
  r_drops out = oval o /\ r_back out = [] /\ res_received (r_res out) = [].
Proof.
  intros a f o HI Ho Hka. rewrite (step_drop_fut_eq a f o HI Ho Hka).
  repeat split; apply (forget_gone a f HI).
Qed.

Theorem c15_at_most_one_value : forall o, length (oval o) <= 1.
Proof. intros o. unfold oval. destruct (o_val o); auto. Qed.

(* a send future's value is either with a receiver already (claimed: the future owns nothing) or
   destroyed by the drop - never both: conservation holds for the drop step like for every step *)
Theorem c15_delivered_or_dropped_never_both : forall a f, Inv a -> conserves a (LDropF f).
Proof. intros a f HI. apply astep_conserves. exact HI. Qed.

Theorem c15_consistent_afterwards : forall a f, Inv a -> Inv (fst (astep a (LDropF f))).
Proof. intros a f HI. apply astep_inv. exact HI. Qed.

Theorem c15_claimed_future_waits_for_its_peer :
  forall i s, In i sinits -> reach (snext actual_ords) i s -> safe s = true.
Proof. exact signal_protocol_safe. Qed.

Print Assumptions c15_drop_at_any_stage.
Print Assumptions c15_delivered_or_dropped_never_both.
Print Assumptions c15_consistent_afterwards.
Print Assumptions c15_claimed_future_waits_for_its_peer.

Example c15_witness :
  let ls := [LMkSend 5 0 1; LDropF 5; LMkSend 6 0 2; LPoll 6 0; LMkSend 7 0 3; LPoll 7 0; LDropF 6; LTryRecv 1;
             LDropF 7; LMkRecv 8 1; LPoll 8 0; LTrySend 0 4; LDropF 8]%N in
  map (fun o => (r_res o, r_drops o)) (snd (arun (init true 0) ls)) =
  [(RUnit, []); (RUnit, [1]); (RUnit, []); (RPending, []); (RUnit, []); (RPending, []); (RUnit, [2]); (ROkSome 3, []);
   (RUnit, []); (RUnit, []); (RPending, []); (ROkB true, []); (RUnit, [4])]%N.
Proof. vm_compute. reflexivity. Qed.
