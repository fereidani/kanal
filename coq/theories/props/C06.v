(* C06 - progress: a blocked or pending operation always completes when it can.
   Stated as safety + bounded solo progress (what induction can carry): partial - the step
   from these statements to termination under a fair scheduler is the standard argument and is
   not mechanised.
   (1) wait list: whenever a side has no handle left, or the channel is closed, nobody is
       left in the wait list - every blocked / pending operation has been released (Atomic);
   (2) protocol (SigLive.v, over every reachable protocol state): no parked owner is left without
       a wake-up once its peer is done; a peer that has claimed a signal is never blocked and is
       done after at most 7 own steps; once the peer is done the owner always has a genuine step
       (not a pause, not a spurious wake-up) until its wait has ended, and at most orank s of them
       (5 at most for the pinned source); a timed owner that nobody claims finishes within 6
       genuine steps, the passing of the deadline being one of them;
   (2') the same hand-off in the atomic channel: the operation at the head of the wait list is completed, and its thread or
       latest waker woken, by the critical section of the next counterpart operation (every send
       kind runs cs_send, every receive kind cs_recv);
   (3) async: the waker woken is the one registered by the latest poll (Atomic: poll under
       the lock replaces the registered waker while the future is listed). *)
From KV Require Import Atomic Sig.
From KV.proofs Require Import Assoc Inv StepInv Cases SigProof SigLive LockDiscipline.

Theorem c06_no_waiter_left_behind : forall b cap ls,
  let a := fst (arun (init b cap) ls) in
  send_count (ch a) = 0%N \/ recv_count (ch a) = 0%N -> wait_list (ch a) = [].
Proof. intros b cap ls. pose proof (reachable_inv b cap ls) as (_ & _ & HC). apply (i_closed _ _ HC). Qed.

(* every unfinished registered waiter is in the wait list, where the next peer finds it *)
Theorem c06_unfinished_waiters_are_listed : forall b cap ls k o,
  let a := fst (arun (init b cap) ls) in
  lookup k (objs a) = Some o -> o_fst o = FWaiting -> o_sig o = SLocked -> In k (wait_list (ch a)).
Proof.
  intros b cap ls k o. simpl. intros Ho Hf Hs.
  (* waiting on a locked signal is the stage st_listed; each other stage has another future state or signal *)
  destruct (stage_of _ k o (reachable_inv b cap ls) Ho) as [F|_ _ L|_ S|_ S|F]; [congruence|exact L|congruence..].
Qed.

Theorem c06_no_lost_wakeup :
  forall i s, In i sinits -> reach (snext actual_ords) i s ->
  ~ (s_o s = OParkLoop /\ s_c s = CDone /\ s_ptoken s = false).
Proof.
  intros i s Hi Hr (Ho & Hc & Hp). pose proof (signal_protocol_safe i s Hi Hr) as H.
  (* it is what the second conjunct of `safe` excludes *)
  apply andb_prop in H as [[_ H]%andb_prop _]. rewrite Ho, Hc, Hp in H. discriminate.
Qed.

(* "a receive blocked on an empty channel completes once a send arrives", and the converse *)
Theorem c06_send_completes_first_blocked_receiver : forall a x k r,
  Inv a -> recv_count (ch a) <> 0%N -> recv_blocking (ch a) = true -> wait_list (ch a) = k :: r ->
  exists o, lookup k (objs a) = Some o /\ is_send o = false /\ o_sig o = SLocked /\
    cs_send a x = SCSent (mkConf (set_wait (ch a) r) (update k (fin_deliver o x) (objs a)) (handles a)) (wake_of o).
Proof.
  intros a x k r HI Hc Hf Hw. destruct (head_listed a k r HI Hw) as (o & Ho & _ & Hs & Hfl & _).
  rewrite Hf in Hfl. exists o. repeat split; auto.
  apply N.eqb_neq in Hc. unfold cs_send, next_recv. rewrite Hc, Hf, Hw. simpl.
  rewrite (sig_deliver_bound k x _ o Ho). reflexivity.
Qed.

Theorem c06_recv_completes_first_blocked_sender : forall a k r,
  Inv a -> recv_count (ch a) <> 0%N -> recv_blocking (ch a) = false -> wait_list (ch a) = k :: r ->
  exists o y v a', lookup k (objs a) = Some o /\ is_send o = true /\ o_val o = Some y /\
    cs_recv a = RCGot v a' (wake_of o) /\
    lookup k (objs a') = Some (fin_take o) /\ wait_list (ch a') = r.
Proof.
  intros a k r HI Hc Hf Hw. destruct (head_sender a k r HI Hf Hw) as (o & y & Ho & Hs & Hy & Ht).
  assert (Hk : lookup k (update k (fin_take o) (objs a)) = Some (fin_take o))
    by (apply lookup_update_eq, (lookup_in _ _ _ Ho)).
  unfold cs_recv, next_send. apply N.eqb_neq in Hc. rewrite Hc.
  destruct (queue (ch a)) as [|v q]; simpl; rewrite Hf, Hw, Ht; eauto 10.
Qed.

(* no entry point ever waits for a signal while it holds the channel lock (its peer needs the lock to release it),
   nor takes the lock while holding it: no self-inflicted deadlock, on every path of the current source *)
Theorem c06_no_wait_under_the_lock : forall f a l b c,
  In f Gen_Lock.lock_automata -> ld_run (snd f) a c -> (In (a, l, b) (snd f) -> violates l c = false) /\ snd c <= 1.
Proof. exact no_execution_violates_the_discipline. Qed.

(* progress of the hand-off: the peer never waits, the owner finishes on its own once the peer is done *)
Theorem c06_claiming_peer_never_blocks : forall i s,
  In i sinits -> reach (snext actual_ords) i s -> peer_busy s = true ->
  peer_next s <> [] /\ forall s', In s' (peer_next s) -> crank (s_c s') < crank (s_c s).
Proof.
  intros i s Hi Hr Hb. destruct (progress_reachable _ _ _ _ _ peer_ok_all i s Hi Hr Hb) as [[F|Hn] Hstep].
  - discriminate F.
  - split; [exact Hn|]. intros s' Hs'. apply Hstep. exact Hs'.
Qed.

Theorem c06_owner_finishes_once_peer_is_done : forall i s,
  In i sinits -> reach (snext actual_ords) i s -> s_c s = CDone ->
  (s_o s = OEnded \/ own_next s <> []) /\
  forall s', In s' (own_next s) -> s_c s' = CDone /\ orank s' < orank s.
Proof.
  intros i s Hi Hr Hc. apply cdone_iff in Hc.
  destruct (progress_reachable _ _ _ _ _ owner_ok_all i s Hi Hr Hc) as [Hne Hstep]. split.
  - destruct Hne as [He|Hn]; [left; apply ended_eq; exact He|right; exact Hn].
  - intros s' Hs'. rewrite <- cdone_iff. apply Hstep. exact Hs'.
Qed.

Theorem c06_owner_steps_bounded : forall i s p,
  In i sinits -> reach (snext actual_ords) i s -> s_c s = CDone -> opath s p -> length p <= orank s.
Proof.
  intros i s p Hi Hr Hc Hp. revert Hr Hc. induction Hp as [s|s s' p Hin Hp IH]; intros Hr Hc.
  - simpl. lia.
  - destruct (c06_owner_finishes_once_peer_is_done i s Hi Hr Hc) as [_ Hall].
    destruct (Hall s' Hin) as [Hc' Hlt].
    assert (Hr' : reach (snext actual_ords) i s') by (eapply reach_step; [exact Hr|apply own_next_sub; exact Hin]).
    specialize (IH Hr' Hc'). simpl. lia.
Qed.

Theorem c06_timed_owner_alone_finishes : forall i s,
  In i sinits -> reach (snext actual_ords) i s -> alone_timed s = true ->
  (s_o s = OEnded \/ next3 s <> []) /\ forall s', In s' (next3 s) -> trank s' < trank s.
Proof.
  intros i s Hi Hr Ha. destruct (progress_reachable _ _ _ _ _ timed_ok_all i s Hi Hr Ha) as [Hne Hstep]. split.
  - destruct Hne as [He|Hn]; [left; apply ended_eq; exact He|right; exact Hn].
  - intros s' Hs'. apply Hstep. exact Hs'.
Qed.

(* a poll of a listed future with another waker registers that waker (so the peer wakes the latest one) *)
Theorem c06_latest_waker_registered : forall a f o w,
  o_fst o = FWaiting -> o_sig o = SLocked -> o_waker o <> Some w ->
  send_signal_exists (ch a) f = true ->
  poll_send a f o w = (put a f (set_waker o (Some w)), PPending, [], []).
Proof.
  intros a f o w Hf Hs Hw He. unfold poll_send. rewrite Hf, Hs, He.
  destruct (o_waker o) as [w'|]; [|reflexivity].
  destruct (N.eqb_spec w' w); [congruence|reflexivity].
Qed.

Print Assumptions c06_no_waiter_left_behind.
Print Assumptions c06_unfinished_waiters_are_listed.
Print Assumptions c06_no_lost_wakeup.
Print Assumptions c06_latest_waker_registered.
Print Assumptions c06_send_completes_first_blocked_receiver.
Print Assumptions c06_recv_completes_first_blocked_sender.
Print Assumptions c06_no_wait_under_the_lock.
Print Assumptions c06_claiming_peer_never_blocks.
Print Assumptions c06_owner_finishes_once_peer_is_done.
Print Assumptions c06_owner_steps_bounded.
Print Assumptions c06_timed_owner_alone_finishes.

Example c06_witness :
  let ls := [LMkRecv 5 1; LPoll 5 1; LPoll 5 2; LRecv 6 1; LDropH 0]%N in
  map (fun o => (r_res o, r_wakes o)) (snd (arun (init true 0) ls)) =
  [(RUnit, []); (RPending, []); (RPending, []); (RBlocked, []); (RUnit, [2])]%N.
Proof. vm_compute. reflexivity. Qed.

(* the progress statements are not vacuous: many reachable states have a finished peer, a busy peer, a lonely
   timed owner, and some owner needs several genuine steps (the exact numbers depend on the orderings of the
   source and are not pinned) *)
Example c06_live_witness :
  (Nat.leb 50 (length dom2) && Nat.leb 50 (length (filter peer_busy reachable_set)) && Nat.leb 5 (length dom3)
   && Nat.leb 3 (fold_left Nat.max (map snd tab2) 0))%bool = true.
Proof. rewrite reachable_set_eq. vm_compute. reflexivity. Qed.
