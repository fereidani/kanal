(* C05 - every message is destroyed exactly once, whatever path it takes. *)
From KV Require Import Atomic.
From KV.proofs Require Import Inv Ledger LedgerCor.

(* per step, for every reachable configuration and every label: nothing appears or vanishes *)
Theorem c05_step_conservation : forall a l, Inv a -> conserves a l.
Proof. exact astep_conserves. Qed.

(* over whole executions: each offered value is received, destroyed, handed back or still held, exactly once *)
Theorem c05_destroyed_once : forall b cap ls,
  NoDup (offered_run (init b cap) ls) ->
  let '(a, os) := arun (init b cap) ls in
  NoDup (outs_received os ++ outs_dropped os ++ outs_back os ++ held a) /\
  (forall x, In x (outs_received os) -> In x (offered_run (init b cap) ls)) /\
  (forall x, In x (offered_run (init b cap) ls) ->
             In x (outs_received os) \/ In x (outs_dropped os) \/ In x (outs_back os) \/ In x (held a)).
Proof. exact exactly_once. Qed.

(* Option variants: the value is handed back exactly when the call reports failure *)
Theorem c05_option_back_on_failure : forall a h x opt,
  (exists e, r_res (snd (step_try_send a h x opt)) = RErr e) \/ r_res (snd (step_try_send a h x opt)) = ROkB false ->
  out_tags (snd (step_try_send a h x opt)) = [x] /\
  r_back (snd (step_try_send a h x opt)) = (if opt then [x] else []).
Proof. exact try_send_refused. Qed.

Theorem c05_option_taken_on_success : forall a h x opt,
  r_res (snd (step_try_send a h x opt)) = ROkB true -> out_tags (snd (step_try_send a h x opt)) = [].
Proof. exact try_send_accepted. Qed.

Print Assumptions c05_step_conservation.
Print Assumptions c05_destroyed_once.
Print Assumptions c05_option_back_on_failure.
Print Assumptions c05_option_taken_on_success.

(* non-vacuity: timed send that times out (destroyed once), option send refused (handed back) *)
Example c05_witness :
  let ls := [LSendTimeout 5 0 21; LTimeoutFire 5; LTrySendOpt 0 (Some 22); LMkSend 7 0 23; LPoll 7 1; LDropF 7]%N in
  outs_dropped (snd (arun (init true 0) ls)) = [21; 23]%N /\
  outs_back (snd (arun (init true 0) ls)) = [22]%N /\
  held (fst (arun (init true 0) ls)) = [].
Proof. vm_compute. auto. Qed.
