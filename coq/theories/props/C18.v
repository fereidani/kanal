(* C18 - single-threaded behaviour equals a simple reference channel.
   The reference against which every call of random and corpus single-threaded histories is
   compared (H1, the deciding correspondence for this property) is `Atomic.astep`.  Proved here:
   the reference is total on reachable states (its "cannot happen" outcome is never produced),
   it panics only where the documentation says so, and every one of its steps keeps the
   invariant, conserves the messages and keeps their order - i.e. it *is* a well-behaved
   queue-plus-waiting-list channel.  A second, shorter reference model with a simulation proof is
   not written (DESIGN.md section 11). *)
From KV Require Import Atomic.
From KV.proofs Require Import Inv StepInv Ledger Fifo NoHang.

Theorem c18_reference_is_total : forall b cap ls l,
  bad (r_res (snd (astep (fst (arun (init b cap) ls)) l))) = false.
Proof.
  intros b cap ls l. destruct (astep_res _ l (reachable_inv b cap ls)) as [H _].
  destruct (r_res _); try reflexivity. contradiction.
Qed.

(* no call panics except the documented ones: a None option, polling a finished future *)
Theorem c18_only_documented_panics : forall a l,
  Inv a -> r_res (snd (astep a l)) = RPanic -> documented_panic a l.
Proof. intros a l HI. exact (proj2 (astep_res a l HI)). Qed.

Theorem c18_reference_is_a_channel : forall a l,
  Inv a -> Inv (fst (astep a l)) /\ conserves a l /\ fifo_ok a l.
Proof. intros a l HI. split; [apply astep_inv|split; [apply astep_conserves|apply astep_fifo]]; exact HI. Qed.

Print Assumptions c18_reference_is_total.
Print Assumptions c18_only_documented_panics.
Print Assumptions c18_reference_is_a_channel.

Example c18_witness :
  let ls := [LTrySendOpt 0 None; LObs 1 OIsFull; LTrySend 0 3; LObs 1 OIsFull; LObs 0 OIsTerminated;
             LDropH 0; LObs 1 OIsTerminated; LTryRecv 1; LObs 1 OIsTerminated; LTryRecv 1]%N in
  map r_res (snd (arun (init true 1) ls)) =
  [RPanic; RBool false; ROkB true; RBool true; RInvalid; RUnit; RBool false; ROkSome 3; RBool true; RErr ESendClosed]%N.
Proof. vm_compute. reflexivity. Qed.
