(* C16 - futures and the stream obey the polling contract *)
From KV Require Import Atomic.
From KV.proofs Require Import Assoc Inv Ledger Fifo.

(* a spurious poll of a pending future (same or different waker): Pending, no value moves, the
   state is unchanged except that the registered waker becomes the one just supplied *)
Theorem c16_spurious_poll_of_a_send_future : forall a f o w,
  Inv a -> lookup f (objs a) = Some o -> o_kind o = KSendFut -> o_fst o = FWaiting -> o_sig o = SLocked ->
  poll_send a f o w = (put a f (set_waker o (Some w)), PPending, [], []) \/
  (o_waker o = Some w /\ poll_send a f o w = (a, PPending, [], [])).
Proof.
  intros a f o w HI Ho Hk Hf Hs. unfold poll_send. rewrite Hf, Hs.
  (* waiting on a signal that is still Locked: the stage is st_listed, so the poll finds the future in the list *)
  destruct (stage_of a f o HI Ho) as [F|_ _ L%mem_in B _|_ S|_ S|F]; try congruence.
  unfold send_signal_exists, is_send in *. rewrite Hk in B. rewrite B, L.
  destruct (o_waker o) as [w'|]; [|left; reflexivity].
  destruct (N.eqb_spec w' w) as [->|Hn]; [right; auto|left; reflexivity].
Qed.

Theorem c16_spurious_poll_of_a_receive_future_or_stream : forall a f o w,
  Inv a -> lookup f (objs a) = Some o -> (o_kind o = KRecvFut \/ o_kind o = KStream) ->
  o_fst o = FWaiting -> o_sig o = SLocked ->
  poll_recv a f o w = (put a f (set_waker o (Some w)), PPending, [], []) \/
  (o_waker o = Some w /\ poll_recv a f o w = (a, PPending, [], [])).
Proof.
  intros a f o w HI Ho Hk Hf Hs. unfold poll_recv. rewrite Hf, Hs.
  (* as above: the stage is st_listed *)
  destruct (stage_of a f o HI Ho) as [F|_ _ L%mem_in B _|_ S|_ S|F]; try congruence.
  unfold recv_signal_exists, is_send in *. replace (kind_side (o_kind o)) with SRecv in B by (destruct Hk as [-> | ->]; reflexivity).
  rewrite B, L. simpl.
  destruct (o_waker o) as [w'|]; [|left; reflexivity].
  destruct (N.eqb_spec w' w) as [->|Hn]; [right; auto|left; reflexivity].
Qed.

(* the most recently supplied waker is the one that gets woken *)
Theorem c16_latest_waker_is_woken : forall o w,
  kind_async (o_kind o) = true -> o_waker o = Some w -> wake_of o = [w].
Proof. intros o w Hk Hw. unfold wake_of. rewrite Hk, Hw. reflexivity. Qed.

(* a completed future panics if polled again, and nothing else happens *)
Theorem c16_completed_future_panics : forall a f o w,
  lookup f (objs a) = Some o -> o_fst o = FDone -> (o_kind o = KSendFut \/ o_kind o = KRecvFut) ->
  step_poll a f w = (a, out_of RPanic).
Proof.
  intros a f o w Ho Hf [Hk|Hk]; unfold step_poll, poll_send, poll_recv; rewrite Ho, Hk, Hf; reflexivity.
Qed.

(* the stream: each value once and in order (C01 / C02 hold for every label, polls included),
   and once it has ended it keeps reporting the end *)
Theorem c16_stream_end_is_final : forall a f o w,
  lookup f (objs a) = Some o -> o_kind o = KStream -> o_term o = true -> step_poll a f w = (a, out_of RNone).
Proof. intros a f o w Ho Hk Ht. unfold step_poll. rewrite Ho, Hk, Ht. reflexivity. Qed.

Theorem c16_polls_neither_invent_nor_lose_values : forall a f w, Inv a -> conserves a (LPoll f w).
Proof. intros a f w HI. apply astep_conserves. exact HI. Qed.

Theorem c16_polls_keep_the_order : forall a f w, Inv a -> fifo_ok a (LPoll f w).
Proof. intros a f w HI. apply astep_fifo. exact HI. Qed.

Print Assumptions c16_spurious_poll_of_a_send_future.
Print Assumptions c16_spurious_poll_of_a_receive_future_or_stream.
Print Assumptions c16_latest_waker_is_woken.
Print Assumptions c16_completed_future_panics.
Print Assumptions c16_stream_end_is_final.
Print Assumptions c16_polls_neither_invent_nor_lose_values.
Print Assumptions c16_polls_keep_the_order.

Example c16_witness :
  let ls := [LMkStream 5 1; LPoll 5 1; LPoll 5 2; LTrySend 0 7; LPoll 5 2; LPoll 5 3; LPoll 5 3; LTrySend 0 8; LPoll 5 3;
             LDropH 0; LPoll 5 3; LPoll 5 3; LMkRecv 6 1; LPoll 6 0; LPoll 6 0]%N in
  map (fun o => (r_res o, r_wakes o)) (snd (arun (init true 0) ls)) =
  [(RUnit, []); (RPending, []); (RPending, []); (ROkB true, [2]); (RSome 7, []); (RPending, []); (RPending, []);
   (ROkB true, [3]); (RSome 8, []); (RUnit, []); (RNone, []); (RNone, []); (RUnit, []); (RReadyErr ESendClosed, []); (RPanic, [])]%N.
Proof. vm_compute. reflexivity. Qed.
