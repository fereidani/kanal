(* C08 - capacity is respected: back-pressure and rendezvous *)
From KV Require Import Atomic.
From KV.proofs Require Import Assoc Inv Cases StepInv.

Theorem c08_length_never_exceeds_capacity : forall b cap ls,
  let a := fst (arun (init b cap) ls) in (len (queue (ch a)) <= capacity (ch a))%N.
Proof. intros b cap ls. exact (i_cap _ (proj1 (proj2 (reachable_inv b cap ls)))). Qed.

Theorem c08_senders_wait_only_when_full_receivers_only_when_empty : forall b cap ls,
  let a := fst (arun (init b cap) ls) in
  wait_list (ch a) <> [] ->
  (recv_blocking (ch a) = false -> len (queue (ch a)) = capacity (ch a)) /\
  (recv_blocking (ch a) = true -> queue (ch a) = []).
Proof.
  intros b cap ls. simpl. destruct (reachable_inv b cap ls) as (_ & [Cp Re Sf] & _).
  intros Hw. split; intros F; auto. specialize (Sf F Hw). lia.
Qed.

Theorem c08_try_send_refused_exactly_when_full_and_no_receiver : forall a h x opt,
  Inv a -> is_side a h SSend = true -> recv_count (ch a) <> 0%N ->
  (r_res (snd (step_try_send a h x opt)) = ROkB false <->
   (len (queue (ch a)) = capacity (ch a) /\ (recv_blocking (ch a) = false \/ wait_list (ch a) = []))).
Proof.
  intros a h x opt HI Hs Hr. unfold step_try_send. rewrite Hs.
  pose proof (i_cap _ (proj1 (proj2 HI))) as Cp.
  destruct (cs_send_case a x HI) as [E0|k r0 o N0 F W Ho Hsd Hv|c1 N0 [-> Hn]%no_recv_eq Hl|c1 N0 [-> Hn]%no_recv_eq Hl];
    simpl in *.
  - congruence.
  - split; [discriminate|]. intros [_ [F'|W']]; congruence.
  - split; [discriminate|]. lia.
  - split; [intros _; split; [lia|exact Hn]|destruct opt; reflexivity].
Qed.

Theorem c08_unbounded_never_refuses_or_blocks : forall a x r,
  Inv a -> capacity (ch a) = usize_max -> (len (queue (ch a)) < usize_max)%N ->
  send_case a x r -> match r with SCFull _ => False | _ => True end.
Proof.
  intros a x r HI Hcap Hlen [E0|k r0 o N0 F W Ho Hsd Hv|c1 N0 Hn Hl|c1 N0 [-> _]%no_recv_eq Hl]; auto.
  simpl in Hl. lia.
Qed.

Theorem c08_rendezvous : forall a k h x kd,
  Inv a -> capacity (ch a) = 0%N ->
  r_res (snd (step_send_like a k h x kd)) = ROk ->
  exists kr r o, recv_blocking (ch a) = true /\ wait_list (ch a) = kr :: r /\ lookup kr (objs a) = Some o /\
                 lookup kr (objs (fst (step_send_like a k h x kd))) = Some (fin_deliver o x).
Proof.
  intros a k h x kd HI Hcap. unfold step_send_like. destruct (_ || _); [discriminate|].
  destruct (cs_send_case a x HI) as [E0|kr r0 o N0 F W Ho Hsd Hv|c1 N0 [-> _]%no_recv_eq Hl|c1 N0 _ _]; simpl in *.
  - destruct kd; discriminate.
  - intros _. exists kr, r0, o. repeat split; auto. apply lookup_update_eq, (lookup_in _ _ _ Ho).
  - lia.
  - discriminate.
Qed.

Print Assumptions c08_length_never_exceeds_capacity.
Print Assumptions c08_senders_wait_only_when_full_receivers_only_when_empty.
Print Assumptions c08_try_send_refused_exactly_when_full_and_no_receiver.
Print Assumptions c08_unbounded_never_refuses_or_blocks.
Print Assumptions c08_rendezvous.

Example c08_witness :
  let ls := [LTrySend 0 1; LTrySend 0 2; LTrySend 0 3; LObs 0 OLen; LObs 0 OIsFull; LSend 9 0 4]%N in
  map r_res (snd (arun (init true 2) ls)) = [ROkB true; ROkB true; ROkB false; RNum 2; RBool true; RBlocked]%N.
Proof. vm_compute. reflexivity. Qed.
