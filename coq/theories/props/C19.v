(* C19 - drain_into takes everything available, in order, and reports it exactly.
   The channel side is `Atomic.step_drain`; the caller's vector (previous contents, spare capacity,
   the `reserve` arithmetic in checked usize, pushes that may reallocate under any growth policy) is
   `Vec.drain_into_vec`.  H1 runs the crate with vectors of 0-2 previous elements and 0-3 spare
   places and compares (count, values appended, previous contents intact) with the model. *)
From Coq Require Import String.
From KV Require Import Atomic Vec.
From KV.proofs Require Import Assoc Inv Cases Fifo Drain VecDrain LockDiscipline.

(* on an open channel: appends exactly the pending sequence (buffer, then every blocked or pending
   sender, oldest first), returns its length, leaves nothing behind, destroys / hands back nothing *)
Theorem c19_takes_everything_in_order_and_counts_it : forall a h,
  Inv a -> is_side a h SRecv = true -> recv_count (ch a) <> 0%N ->
  exists a' ws,
    step_drain a h = (a', mkOut (RDrain (len (pending a)) (pending a)) [] ws []) /\
    pending a' = [] /\ queue (ch a') = [].
Proof. exact drain_spec. Qed.

(* channel and vector together, for every vector, every allocator growth policy and every reachable
   configuration: no usize underflow, the previous contents stay where they were, exactly the pending
   sequence is appended in order, and the count returned is the growth of the vector *)
Theorem c19_vector_keeps_previous_contents_and_count_is_number_appended : forall grow a h v,
  grows_enough grow -> vec_ok v ->
  Inv a -> is_side a h SRecv = true -> recv_count (ch a) <> 0%N ->
  exists a' ws n ys v',
    step_drain a h = (a', mkOut (RDrain n ys) [] ws []) /\
    drain_into_vec grow v n ys = Some (v', n) /\
    ys = pending a /\
    v_items v' = (v_items v ++ pending a)%list /\
    (len (v_items v') = len (v_items v) + n)%N /\
    firstn (length (v_items v)) (v_items v') = v_items v /\
    pending a' = [] /\ vec_ok v'.
Proof. exact drain_into_whole. Qed.

Theorem c19_releases_each_sender_with_success : forall a h k o,
  Inv a -> is_side a h SRecv = true -> recv_count (ch a) <> 0%N -> recv_blocking (ch a) = false ->
  In k (wait_list (ch a)) -> lookup k (objs a) = Some o ->
  exists o', lookup k (objs (fst (step_drain a h))) = Some o' /\ o_sig o' = SOk /\ o_val o' = None.
Proof.
  intros a h k o HI Hs Hr F Hin%mem_in Ho. destruct (step_drain_spec a h HI Hs Hr) as (a' & ws & -> & _ & _ & Hl).
  exists (fin_take o). simpl. rewrite (Hl F k), Hin, Ho. auto.
Qed.

Theorem c19_closed_channel_takes_nothing : forall a h,
  is_side a h SRecv = true -> recv_count (ch a) = 0%N -> step_drain a h = (a, out_of (RErr EClosed)).
Proof. exact drain_into_closed_keeps_vector. Qed.

(* it never blocks: one critical section, no wait on any signal (computed on the current source) *)
Theorem c19_never_blocks :
  forallb (fun fn => match has_event "wait"%string fn with Some false => true | _ => false end) nonblocking_fns = true /\
  undisciplined = [].
Proof. split; [exact nonblocking_never_wait|exact lock_discipline_holds]. Qed.

Print Assumptions c19_takes_everything_in_order_and_counts_it.
Print Assumptions c19_vector_keeps_previous_contents_and_count_is_number_appended.
Print Assumptions c19_releases_each_sender_with_success.
Print Assumptions c19_closed_channel_takes_nothing.
Print Assumptions c19_never_blocks.

Example c19_witness :
  let ls := [LTrySend 0 1; LMkSend 5 0 2; LPoll 5 0; LMkSend 6 0 3; LPoll 6 1; LDrain 1; LPoll 5 0; LObs 1 OLen]%N in
  map (fun o => (r_res o, r_wakes o)) (snd (arun (init true 1) ls)) =
  [(ROkB true, []); (RUnit, []); (RPending, []); (RUnit, []); (RPending, []); (RDrain 3 [1; 2; 3], [0; 1]);
   (RReadyOk, []); (RNum 0, [])]%N.
Proof. vm_compute. reflexivity. Qed.
