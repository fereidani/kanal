(* C07 - hand-off is memory-safe: no data race, no access after the waiter is gone.
   Model: Sig.v - one signal, its owner against its claiming peer, every shared access an
   event, ownership tokens for the slot, the waker cell and the signal's lifetime, moved
   only by release/acquire pairs with the orderings of the current source.
   Memory model: DESIGN.md 3.3 (atomics sequentially consistent for values; no load
   buffering, no aliasing model) - the claim is partial in exactly that sense.
   Tie to /repo: orderings and operands regenerated (gen/Gen_Sites.v), shape of signal.rs
   pinned (ShapeSignal.signal_shape_ok), every event of scheduled runs of the real crate fed to
   the extracted Sig.sstep with its source site (H2), plus an independent vector-clock
   happens-before detector on the same traces. *)
From KV Require Import Sig.
From KV.gen Require Import Gen_Sites.
From KV.proofs Require Import SigProof ShapeBase ShapeSignal ShapeSites.

(* every reachable state of the protocol - any interleaving, any number of spin / park / sleep
   iterations, spurious wake-ups, the deadline at any moment, sync / timed / async owner,
   peer delivering, taking or terminating - is safe: no access without its token (`s_viol`),
   no owner parked for ever after its peer is done, success reported iff the peer delivered *)
Theorem c07_every_reachable_state_is_safe :
  forall i s, In i sinits -> reach (snext actual_ords) i s -> safe s = true.
Proof. exact signal_protocol_safe. Qed.

Corollary c07_no_access_without_its_token :
  forall i s, In i sinits -> reach (snext actual_ords) i s -> s_viol s = false.
Proof.
  intros i s Hi Hr. pose proof (signal_protocol_safe i s Hi Hr) as H. unfold safe in H.
  destruct (s_viol s); [discriminate|reflexivity].
Qed.

Theorem c07_source_shape_is_the_modelled_one :
  skel_diff ["signal."] (strip_table Gen_Skel.protocol_skeletons) (strip_table Expected.expected_protocol_skeletons) = [] /\
  list_eqb shape_eqb (map site_shape atomic_sites) (map site_shape Expected.expected_atomic_sites) = true.
Proof. split; [exact signal_shape_ok|exact atomic_sites_shape_ok]. Qed.

Print Assumptions c07_every_reachable_state_is_safe.
Print Assumptions c07_no_access_without_its_token.
Print Assumptions c07_source_shape_is_the_modelled_one.

(* non-vacuity: the reachable set is not trivial, and it contains the park / unpark hand-off *)
Example c07_reachable_states : 100 < reachable_count.
Proof. apply PeanoNat.Nat.ltb_lt. reflexivity. Qed.

Example c07_park_path_is_reachable :
  exists s, In s reachable_set /\ s_o s = OParked /\ s_c s = CDone /\ s_st s = V0.
Proof.
  assert (H : existsb (fun s => match s_o s, s_c s, s_st s with OParked, CDone, V0 => true | _, _, _ => false end)
                      reachable_set = true) by (rewrite reachable_set_eq; vm_compute; reflexivity).
  apply existsb_exists in H as (s & Hs & Hm). exists s. split; [exact Hs|]. clear Hs.
  destruct (s_o s); try discriminate Hm. destruct (s_c s); try discriminate Hm.
  destruct (s_st s); try discriminate Hm. auto.
Qed.

(* the finding D6 (repaired by commit a66420b): with a relaxed is_terminated the set is not safe *)
Example c07_relaxed_is_terminated_refuted :
  let weak := mkOrds (r_poll_load actual_ords) (r_poll_fence actual_ords)
                     (r_abw_load0 actual_ords) (r_abw_fence0 actual_ords) (r_abw_load1 actual_ords) (r_abw_fence1 actual_ords)
                     (r_abw_load2 actual_ords) (r_abw_fence2 actual_ords)
                     (r_wait_load0 actual_ords) (r_wait_fence0 actual_ords) (r_wait_load1 actual_ords) (r_wait_fence1 actual_ords)
                     (r_wait_cas_s actual_ords) (r_wait_cas_f actual_ords) (r_wait_park_load actual_ords)
                     (r_wt_load0 actual_ords) (r_wt_fence0 actual_ords) (r_wt_load1 actual_ords) (r_wt_fence1 actual_ords)
                     (r_wt_final actual_ords) Relaxed
                     (r_wake_cas_s actual_ords) (r_wake_cas_f actual_ords) (r_wake_store_sync actual_ords)
                     (r_wake_store_async actual_ords) in
  exists l, explore (snext weak) 200000 sinits [] = Some l /\ forallb safe l = false.
Proof. eexists. split; [vm_compute; reflexivity|vm_compute; reflexivity]. Qed.
