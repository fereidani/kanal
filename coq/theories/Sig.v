(* Sig.v - the signal hand-off protocol of signal.rs for ONE signal, event by event:
   its owner (the blocked / pending operation whose frame or future contains the
   signal) against the one peer that claimed it (popped it from the wait list
   under the channel lock) - plus the environment (park tokens, spurious wake-ups,
   the deadline passing at any moment).

   Every shared access of `wait`, `wait_timeout`, `async_blocking_wait`, `poll`,
   `is_terminated`, `wake`, `send`, `recv`, `terminate` is one event; the events
   carry the memory orderings, which come from the generated site table
   (gen/Gen_Sites.v).  Non-atomic locations (the slot, the waker cell) and the
   signal's lifetime carry ownership tokens (DESIGN.md 3.8): a releasing store /
   successful CAS deposits the tokens of its thread into `state`, an acquiring
   read of that value withdraws them; an access without the token sets `viol`.

   Loop counts are not modelled: a spin / park / sleep loop may iterate any number
   of times.  The state space of one signal is finite, so "every reachable state
   is safe" is proved in SigProof.v by computing the reachable set inside Coq, with an
   exploration whose result is closed under `snext` (no bound on the length of executions). *)
From KV Require Export Mem.

Inductive stv := V0 | V1 | V2 | V3.          (* UNLOCKED, TERMINATED, LOCKED, LOCKED_STARVATION *)
Definition low (v : stv) : bool := match v with V0 | V1 => true | _ => false end.

Inductive holder := HOwner | HPool | HClaimer | HState | HLost.
Inductive flav := FlSync | FlAsync.
Inductive ckind := CSend | CRecv | CTerm.    (* peer writes the slot / reads the slot / terminates *)
Inductive phase := PPrivate | PListed | PClaimed | PCancelled.

Inductive opc :=
| OPriv                   (* constructed, not yet published *)
| OWait                   (* Signal::wait: first load / spin phase *)
| OLow (v : stv)          (* a relaxed load saw v < LOCKED: the acquire fence is next *)
| OCasReady               (* thread handle stored: about to CAS LOCKED -> LOCKED_STARVATION *)
| OParkLoop | OParked
| OTimed                  (* Signal::wait_timeout: spin until the deadline *)
| OTimedFinal             (* deadline passed: the final load *)
| OTimedFalse             (* wait_timeout returned false: is_terminated is next *)
| OCancelling             (* about to cancel under the lock *)
| APending                (* async: registered, between polls *)
| ABlocking               (* async: async_blocking_wait *)
| ORet (ok : bool)        (* the wait is over; the owner may read its slot, then its frame ends *)
| OEnded.

Inductive cpc := CNone | CClaimed | CSlotDone | CKindRead | CCasFailed | CWakerRead | CStored | CDone.

Record sigst := mkS {
  s_fl : flav; s_timed : bool;
  s_st : stv; s_phase : phase;
  s_slot : holder; s_waker : holder; s_life : holder;
  s_o : opc; s_c : cpc; s_ck : ckind;
  s_ptoken : bool;          (* park token of the owner's thread *)
  s_viol : bool             (* an access without its token happened *)
}.

Inductive sev :=
| EPublish
| EWakerWrite                         (* owner: store thread handle / register_waker *)
| EWakerReadOwner                     (* owner: will_wake *)
| EReRegister                         (* owner, under the lock and still listed: register_waker again *)
| EStartBlocking                      (* owner, under the lock: no longer listed -> async_blocking_wait *)
| ELoad (o : ordering) (v : stv)      (* owner *)
| EFence (o : ordering)
| ECasO (os of : ordering) (ok : bool) (v : stv)
| EPause                              (* yield / sleep / clock reading *)
| EDeadline                           (* the clock passed the deadline *)
| EPark (consumed : bool)
| ECancel (ok : bool)
| ESlotOwner
| EEnd
| EClaim (k : ckind)
| ESlotC
| EKind
| ECasC (os of : ordering) (ok : bool)
| EWakerReadC
| EStoreC (o : ordering)
| EUnpark
| EWakeCall.

Definition final_of (k : ckind) : stv := match k with CTerm => V1 | _ => V0 end.

Definition set_o (s : sigst) (o : opc) : sigst :=
  mkS (s_fl s) (s_timed s) (s_st s) (s_phase s) (s_slot s) (s_waker s) (s_life s) o (s_c s) (s_ck s) (s_ptoken s) (s_viol s).
Definition set_c (s : sigst) (c : cpc) : sigst :=
  mkS (s_fl s) (s_timed s) (s_st s) (s_phase s) (s_slot s) (s_waker s) (s_life s) (s_o s) c (s_ck s) (s_ptoken s) (s_viol s).
Definition set_viol (s : sigst) : sigst :=
  mkS (s_fl s) (s_timed s) (s_st s) (s_phase s) (s_slot s) (s_waker s) (s_life s) (s_o s) (s_c s) (s_ck s) (s_ptoken s) true.
Definition set_timed (s : sigst) (b : bool) : sigst :=
  mkS (s_fl s) b (s_st s) (s_phase s) (s_slot s) (s_waker s) (s_life s) (s_o s) (s_c s) (s_ck s) (s_ptoken s) (s_viol s).
Definition set_ptoken (s : sigst) (b : bool) : sigst :=
  mkS (s_fl s) (s_timed s) (s_st s) (s_phase s) (s_slot s) (s_waker s) (s_life s) (s_o s) (s_c s) (s_ck s) b (s_viol s).

Definition holder_eqb (a b : holder) : bool :=
  match a, b with
  | HOwner, HOwner | HPool, HPool | HClaimer, HClaimer | HState, HState | HLost, HLost => true
  | _, _ => false
  end.

(* move every token held by `from` to `to` *)
Definition mv (from to : holder) (h : holder) : holder := if holder_eqb h from then to else h.
Definition move_all (s : sigst) (from to : holder) : sigst :=
  mkS (s_fl s) (s_timed s) (s_st s) (s_phase s) (mv from to (s_slot s)) (mv from to (s_waker s)) (mv from to (s_life s))
      (s_o s) (s_c s) (s_ck s) (s_ptoken s) (s_viol s).
Definition withdraw (s : sigst) : sigst := move_all s HState HOwner.
Definition need (s : sigst) (h who : holder) : sigst := if holder_eqb h who then s else set_viol s.

Definition set_st (s : sigst) (v : stv) : sigst :=
  mkS (s_fl s) (s_timed s) v (s_phase s) (s_slot s) (s_waker s) (s_life s) (s_o s) (s_c s) (s_ck s) (s_ptoken s) (s_viol s).
Definition set_phase (s : sigst) (p : phase) : sigst :=
  mkS (s_fl s) (s_timed s) (s_st s) p (s_slot s) (s_waker s) (s_life s) (s_o s) (s_c s) (s_ck s) (s_ptoken s) (s_viol s).
Definition set_waker_h (s : sigst) (h : holder) : sigst :=
  mkS (s_fl s) (s_timed s) (s_st s) (s_phase s) (s_slot s) h (s_life s) (s_o s) (s_c s) (s_ck s) (s_ptoken s) (s_viol s).
Definition set_ck (s : sigst) (k : ckind) : sigst :=
  mkS (s_fl s) (s_timed s) (s_st s) (s_phase s) (s_slot s) (s_waker s) (s_life s) (s_o s) (s_c s) k (s_ptoken s) (s_viol s).

Definition stv_eqb (a b : stv) : bool :=
  match a, b with V0, V0 | V1, V1 | V2, V2 | V3, V3 => true | _, _ => false end.

(* owner observes value v with an acquiring access *)
Definition observe (s : sigst) (acq : bool) (v : stv) : sigst :=
  if acq && low v then withdraw s else s.

(* the acceptor: what one event does; None = the protocol does not produce this event here *)
Definition sstep (s : sigst) (e : sev) : option sigst :=
  match e, s_o s, s_c s with
  (* ---------------- owner ---------------- *)
  | EWakerWrite, OPriv, _ =>
      match s_fl s with FlAsync => Some s | FlSync => None end
  | EPublish, OPriv, _ =>
      let s1 := set_phase (move_all s HOwner HPool) PListed in
      (* a sync owner keeps its waker cell (it writes it later, before its CAS) *)
      let s2 := match s_fl s with FlSync => set_waker_h s1 HOwner | FlAsync => s1 end in
      Some (set_o s2 (match s_fl s with FlAsync => APending | FlSync => if s_timed s then OTimed else OWait end))
  | ELoad o v, OWait, _ | ELoad o v, OTimed, _ | ELoad o v, ABlocking, _ | ELoad o v, APending, _ =>
      if stv_eqb v (s_st s) then
        if low v then Some (set_o (observe s (is_acq o) v) (OLow v)) else Some s
      else None
  | EFence o, OLow v, _ =>
      (* inside wait_timeout a terminated signal makes it return false: is_terminated is next *)
      Some (set_o (observe s (is_acq o) v)
                  (if s_timed s && stv_eqb v V1 then OTimedFalse else ORet (stv_eqb v V0)))
  | EPause, OWait, _ | EPause, OTimed, _ | EPause, ABlocking, _ => Some s
  | EWakerWrite, OWait, _ =>
      match s_fl s with FlSync => Some (set_o (need s (s_waker s) HOwner) OCasReady) | FlAsync => None end
  | ECasO os of ok v, OCasReady, _ =>
      if stv_eqb v (s_st s) then
        match v, ok with
        | V2, true =>
            let s1 := set_st s V3 in
            let s2 := set_waker_h s1 (if holder_eqb (s_waker s1) HOwner then (if is_rel os then HState else HLost) else s_waker s1) in
            Some (set_o s2 OParkLoop)
        | V0, false | V1, false => Some (set_o (observe s (is_acq of) v) (ORet (stv_eqb v V0)))
        | _, _ => None
        end
      else None
  | EPark consumed, OParkLoop, _ =>
      if consumed then (if s_ptoken s then Some (set_o (set_ptoken s false) OParked) else None)
      else Some (set_o s OParked)
  | ELoad o v, OParked, _ =>
      if stv_eqb v (s_st s) then
        if low v then Some (set_o (observe s (is_acq o) v) (ORet (stv_eqb v V0))) else Some (set_o s OParkLoop)
      else None
  | EDeadline, OTimed, _ => Some (set_o s OTimedFinal)
  | ELoad o v, OTimedFinal, _ =>
      if stv_eqb v (s_st s) then
        let s1 := observe s (is_acq o) v in
        Some (set_o s1 (if stv_eqb v V0 then ORet true else OTimedFalse))
      else None
  | ELoad o v, OTimedFalse, _ =>        (* Signal::is_terminated *)
      if stv_eqb v (s_st s) then
        let s1 := observe s (is_acq o) v in
        Some (set_o s1 (if stv_eqb v V1 then ORet false else OCancelling))
      else None
  | ECancel ok, OCancelling, _ | ECancel ok, APending, _ =>
      match s_phase s, ok with
      | PListed, true => Some (set_o (set_phase (move_all s HPool HOwner) PCancelled) (ORet false))
      | PClaimed, false =>
          (* the timed phase is over: the owner now waits without a deadline (Signal::wait) *)
          Some (set_o (set_timed s false) (match s_o s with APending => ABlocking | _ => OWait end))
      | _, _ => None
      end
  | EWakerReadOwner, APending, _ => Some s
  | EReRegister, APending, _ =>
      match s_phase s with PListed => Some s | _ => None end
  | EStartBlocking, APending, _ =>
      match s_phase s with PClaimed => Some (set_o s ABlocking) | _ => None end
  | ESlotOwner, ORet b, _ => Some (need s (s_slot s) HOwner)
  | EEnd, ORet b, _ =>
      Some (set_o (need (need (need s (s_slot s) HOwner) (s_waker s) HOwner) (s_life s) HOwner) OEnded)
  (* ---------------- the claiming peer ---------------- *)
  | EClaim k, _, CNone =>
      match s_phase s with
      | PListed => Some (set_c (set_ck (set_phase (move_all s HPool HClaimer) PClaimed) k)
                               (match k with CTerm => CSlotDone | _ => CClaimed end))
      | _ => None
      end
  | ESlotC, _, CClaimed => Some (set_c (need s (s_slot s) HClaimer) CSlotDone)
  | EKind, _, CSlotDone => Some (set_c (need s (s_life s) HClaimer) CKindRead)
  | ECasC os of ok, _, CKindRead =>
      match s_fl s with
      | FlAsync => None
      | FlSync =>
          match s_st s, ok with
          | V2, true =>
              Some (set_c (set_st (move_all s HClaimer (if is_rel os then HState else HLost)) (final_of (s_ck s))) CDone)
          | V3, false =>
              Some (set_c (if is_acq of then set_waker_h s (if holder_eqb (s_waker s) HState then HClaimer else s_waker s) else s)
                          CCasFailed)
          | _, _ => None
          end
      end
  | EWakerReadC, _, CKindRead =>
      match s_fl s with FlAsync => Some (set_c (need s (s_waker s) HClaimer) CWakerRead) | FlSync => None end
  | EWakerReadC, _, CCasFailed => Some (set_c (need s (s_waker s) HClaimer) CWakerRead)
  | EStoreC o, _, CWakerRead =>
      Some (set_c (set_st (move_all s HClaimer (if is_rel o then HState else HLost)) (final_of (s_ck s))) CStored)
  | EUnpark, _, CStored =>
      match s_fl s with FlSync => Some (set_c (set_ptoken s true) CDone) | FlAsync => None end
  | EWakeCall, _, CStored =>
      match s_fl s with FlAsync => Some (set_c s CDone) | FlSync => None end
  | _, _, _ => None
  end.

(* ---------- the orderings, by role, read from the generated site table ---------- *)
Record sig_ords := mkOrds {
  r_poll_load : ordering; r_poll_fence : ordering;
  r_abw_load0 : ordering; r_abw_fence0 : ordering; r_abw_load1 : ordering; r_abw_fence1 : ordering;
  r_abw_load2 : ordering; r_abw_fence2 : ordering;
  r_wait_load0 : ordering; r_wait_fence0 : ordering; r_wait_load1 : ordering; r_wait_fence1 : ordering;
  r_wait_cas_s : ordering; r_wait_cas_f : ordering; r_wait_park_load : ordering;
  r_wt_load0 : ordering; r_wt_fence0 : ordering; r_wt_load1 : ordering; r_wt_fence1 : ordering; r_wt_final : ordering;
  r_isterm : ordering;
  r_wake_cas_s : ordering; r_wake_cas_f : ordering; r_wake_store_sync : ordering; r_wake_store_async : ordering
}.

Definition site_ord (l : list asite) (fn : string) (i : nat) : ordering :=
  match find_site fn i l with Some s => s_ord s | None => Relaxed end.
Definition site_ord2 (l : list asite) (fn : string) (i : nat) : ordering :=
  match find_site fn i l with Some s => match s_ord2 s with Some o => o | None => Relaxed end | None => Relaxed end.

Open Scope string_scope.
(* roles = atomic transitions of the canonical automata of gen/Gen_Skel.v (pinned by proofs/ShapeSignal.v):
     poll                 0 the load, 1 the fence
     async_blocking_wait  0 the load of each of the three phases (one transition), 1 the fence
     wait                 0 the spin loads (before and inside the loop), 1 the fence, 2 the CAS, 3 the load after park
     wait_timeout         0 the load of the first spin phase, 1 the final load, 2 the load of the timed loop, 3 the fence
     send / send_copy / recv / terminate (Signal::wake inlined)   0 the CAS, 1 the async store, 2 the sync store
   an ordering is the weakest among the source sites that play the role, and among the four wake paths *)
Definition ords_of (l : list asite) : sig_ords :=
  let p := "signal.Signal.poll" in let a := "signal.Signal.async_blocking_wait" in
  let w := "signal.Signal.wait" in let t := "signal.Signal.wait_timeout" in
  let ks := ["signal.Signal.send"; "signal.Signal.send_copy"; "signal.Signal.recv"; "signal.Signal.terminate"] in
  mkOrds (site_ord l p 0) (site_ord l p 1)
         (site_ord l a 0) (site_ord l a 1) (site_ord l a 0) (site_ord l a 1) (site_ord l a 0) (site_ord l a 1)
         (site_ord l w 0) (site_ord l w 1) (site_ord l w 0) (site_ord l w 1)
         (site_ord l w 2) (site_ord2 l w 2) (site_ord l w 3)
         (site_ord l t 0) (site_ord l t 3) (site_ord l t 2) (site_ord l t 3) (site_ord l t 1)
         (site_ord l "signal.Signal.is_terminated" 0)
         (ord_meet_all (map (fun k => site_ord l k 0) ks)) (ord_meet_all (map (fun k => site_ord2 l k 0) ks))
         (ord_meet_all (map (fun k => site_ord l k 2) ks)) (ord_meet_all (map (fun k => site_ord l k 1) ks)).
Close Scope string_scope.

(* ---------- the generator: the events the code can produce in a state ---------- *)
Definition all_v : list stv := [V0; V1; V2; V3].

Definition loads (os : list ordering) : list sev := flat_map (fun o => map (ELoad o) all_v) os.

Definition owner_events (r : sig_ords) (s : sigst) : list sev :=
  match s_o s with
  | OPriv => [EWakerWrite; EPublish]
  | OWait => loads [r_wait_load0 r; r_wait_load1 r] ++ [EPause; EWakerWrite]
  | OLow _ =>
      (* the fence that follows the relaxed load: any of the fence sites of the current wait function *)
      map EFence [r_poll_fence r; r_abw_fence0 r; r_abw_fence1 r; r_abw_fence2 r;
                  r_wait_fence0 r; r_wait_fence1 r; r_wt_fence0 r; r_wt_fence1 r]
  | OCasReady => flat_map (fun v => [ECasO (r_wait_cas_s r) (r_wait_cas_f r) true v; ECasO (r_wait_cas_s r) (r_wait_cas_f r) false v]) all_v
  | OParkLoop => [EPark true; EPark false]
  | OParked => loads [r_wait_park_load r]
  | OTimed => loads [r_wt_load0 r; r_wt_load1 r] ++ [EPause; EDeadline]
  | OTimedFinal => loads [r_wt_final r]
  | OTimedFalse => loads [r_isterm r]
  | OCancelling => [ECancel true; ECancel false]
  | APending => loads [r_poll_load r] ++ [EWakerReadOwner; EReRegister; EStartBlocking; ECancel true; ECancel false]
  | ABlocking => loads [r_abw_load0 r; r_abw_load1 r; r_abw_load2 r] ++ [EPause]
  | ORet _ => [ESlotOwner; EEnd]
  | OEnded => []
  end.

Definition claimer_events (r : sig_ords) (s : sigst) : list sev :=
  match s_c s with
  | CNone => [EClaim CSend; EClaim CRecv; EClaim CTerm]
  | CClaimed => [ESlotC]
  | CSlotDone => [EKind]
  | CKindRead => [ECasC (r_wake_cas_s r) (r_wake_cas_f r) true; ECasC (r_wake_cas_s r) (r_wake_cas_f r) false; EWakerReadC]
  | CCasFailed => [EWakerReadC]
  | CWakerRead => [EStoreC (match s_fl s with FlSync => r_wake_store_sync r | FlAsync => r_wake_store_async r end)]
  | CStored => [EUnpark; EWakeCall]
  | CDone => []
  end.

(* the fence after a low relaxed load belongs to the function the owner is in: keep the model
   simple and sound by requiring EVERY fence site to acquire when ANY is used (see fences_uniform) *)
Definition snext (r : sig_ords) (s : sigst) : list sigst :=
  if s_viol s then [] else
  flat_map (fun e => match sstep s e with Some s' => [s'] | None => [] end) (owner_events r s ++ claimer_events r s).

Definition sinit (f : flav) (timed : bool) : sigst :=
  mkS f timed V2 PPrivate HOwner HOwner HOwner OPriv CNone CSend false false.

Definition sinits : list sigst := [sinit FlSync false; sinit FlSync true; sinit FlAsync false].

(* ---------- what must hold in every reachable state ---------- *)
(* no access without its token; no owner parked for ever after its peer is completely done;
   a finished wait reports success exactly when the peer finished it with UNLOCKED *)
Definition opc_is_ret (o : opc) : option bool := match o with ORet b => Some b | _ => None end.

Definition safe (s : sigst) : bool :=
  negb (s_viol s) &&
  negb (match s_o s, s_c s with OParkLoop, CDone => negb (s_ptoken s) | _, _ => false end) &&
  match opc_is_ret (s_o s), s_phase s with
  | Some b, PClaimed => Bool.eqb b (stv_eqb (final_of (s_ck s)) V0) && low (s_st s)
  | Some b, PCancelled => negb b
  | Some _, _ => false
  | None, _ => true
  end.
